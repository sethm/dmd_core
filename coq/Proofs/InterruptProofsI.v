(* C07: CALLPS runs the interrupt-entry sequence of InterruptProofs.v on the control block named by %r0, with the
   saved PC past the CALLPS; so CALLPS + RETPS is transparent as interrupt + RETPS is. *)
From Coq Require Import ZArith Lia Bool List.
From Dmd Require Import Model.Bits Model.Types Model.Mem Model.Bus Model.Decode Model.Cpu.
From Dmd Require Import Proofs.BitsLemmas Proofs.BusProofs Proofs.RegKit Proofs.MachKit Proofs.InterruptProofs.
Import ListNotations.
Open Scope Z_scope.

Definition entry_from (N : Z) (m : mach) : res mach unit :=
  bind (context_switch_1 N (entry0 m)) (fun _ m => bind (context_switch_2 N m) (fun _ m =>
    context_switch_3 (psw_enter_2 m))).

Lemma exec_callps_kernel ir m : iopcode ir = 12460 -> is_kernel m = true ->
  exec ir m =
  bind (irq_push (R m R_PCBP) m) (fun _ m1 =>
    let m2 := psw_enter_1 (setR m1 R_PC (add32 (R m1 R_PC) 2)) in
    bind (context_switch_1 (R m 0) m2) (fun _ m3 => bind (context_switch_2 (R m 0) m3) (fun _ m4 =>
      bind (context_switch_3 (psw_enter_2 m4)) (fun _ m5 => Ok 0 m5)))).
Proof. destruct ir as [opc ? ? ? ? ?]. cbn [iopcode]. intros -> K. cbn. rewrite K. reflexivity. Qed.

Lemma callps_is_entry_from ir m :
  iopcode ir = 12460 -> is_kernel m = true ->
  bus_wf (mbus m) -> in_ram_w (R m R_ISP) ->
  exec ir m = bind (entry_from (R m 0) (setR m R_PC (add32 (R m R_PC) 2))) (fun _ m5 => Ok 0 m5).
Proof.
  intros Ho K W HS. rewrite exec_callps_kernel by assumption.
  unfold irq_push. rewrite wr_word_ram by assumption. cbn [bind]. cbv zeta. rewrite R_stw.
  rewrite add32_small by (destruct HS as (? & ? & _); unfold RAMB, RAME in *; lia).
  assert (E : psw_enter_1 (setR (setR (stw m (R m R_ISP) (R m R_PCBP)) R_ISP (R m R_ISP + 4)) R_PC
                (add32 (R (setR (stw m (R m R_ISP) (R m R_PCBP)) R_ISP (R m R_ISP + 4)) R_PC) 2))
              = entry0 (setR m R_PC (add32 (R m R_PC) 2))).
  { unfold psw_enter_1, entry0, psw1, setPSW, PSW. cbv zeta. rconst.
    repeat first [rewrite R_setR_other by lia | rewrite R_stw | rewrite R_setR_same].
    destruct m as [rg bs]. unfold setR, stw, with_regs, with_bus, R. cbn [mregs mbus]. f_equal. }
  rewrite E. unfold entry_from.
  destruct (context_switch_1 (R m 0) (entry0 (setR m R_PC (add32 (R m R_PC) 2)))) as [u m3|e m3| |]; cbn [bind]; auto.
  destruct (context_switch_2 (R m 0) m3) as [u2 m4|e m4| |]; cbn [bind]; auto.
Qed.

Lemma callps_retps (r : bool) irc irr m :
  iopcode irc = 12460 -> iopcode irr = 12488 -> is_kernel m = true -> bus_wf (mbus m) ->
  let N := R m 0 in let P := R m R_PCBP in let S := R m R_ISP in let h := ldw m N in
  Z.testbit h 8 = r -> Z.testbit h 7 = false -> Z.testbit h 11 = false -> Z.testbit h 12 = false ->
  Z.testbit (PSW m) 7 = false ->
  blk N 12 -> blk P (old_sz r) -> in_ram_w S ->
  (P + ret_sz r <= N \/ N + new_sz r false <= P) -> (S + 4 <= P \/ P + ret_sz r <= S) ->
  (S + 4 <= N \/ N + new_sz r false <= S) ->
  (if r then in_ram_w (N + 64) /\ ldw m (N + 64) = 0 /\ in_ram_w (P + 64) /\ ldw m (P + 64) = 0 else True) ->
  exists m1 m2,
    exec irc m = Ok 0 m1 /\ exec irr m1 = Ok 0 m2
    /\ R m2 R_PC = add32 (R m R_PC) 2 /\ R m2 R_SP = w32 (R m R_SP) /\ R m2 R_PCBP = P /\ R m2 R_ISP = S
    /\ (forall j, 0 <= j <= 10 -> R m2 j = if r then w32 (R m j) else R m j)
    /\ (forall k, In k [21; 20; 19; 18; 16; 15; 14; 13; 12; 11; 10; 9; 7] -> Z.testbit (PSW m2) k = Z.testbit (PSW m) k)
    /\ (forall a, RAMB <= a -> (a < S \/ S + 4 <= a) -> (a < P \/ P + old_sz r <= a) -> ramb m2 a = ramb m a).
Proof.
  intros Hc Hr K W N P S h HR HI H11 H12 PI BN BP HS D1 D2 D3 HL.
  rewrite (callps_is_entry_from irc m Hc K W HS). fold N. unfold entry_from.
  (* the caller's state with the PC moved on differs from m in the PC only *)
  destruct (entry_retps_transparent r false irr N (setR m R_PC (add32 (R m R_PC) 2)) Hr W)
    as (m1 & m2 & E1 & _ & E2 & Pc & Sp & Pcb & Isp & Rg & Bits & Fr); try assumption.
  exists m1, m2. rewrite E1. cbn [bind]. split; [reflexivity|]. split; [exact E2|].
  rewrite R_setR_same, (w32_id (add32 (R m R_PC) 2) (w32_range _)) in Pc.
  split; [exact Pc|]. split; [exact Sp|]. split; [exact Pcb|]. split; [exact Isp|].
  split; [|split; [exact Bits | exact Fr]].
  intros j Hj. rewrite (Rg j Hj). unfold R_PC. now rewrite R_setR_other by lia.
Qed.

(* CALLPS to a control block (kernel level, without R and I) whose code returns at once with RETPS: the caller
   continues after the CALLPS with SP, r0-r10, PCBP, ISP, condition codes, priority and execution level as they were *)
Theorem callps_retps_transparent irc irr m :
  iopcode irc = 12460 -> iopcode irr = 12488 -> is_kernel m = true ->
  bus_wf (mbus m) ->
  let N := R m 0 in
  let P := R m R_PCBP in
  let S := R m R_ISP in
  in_ram_w N -> in_ram_w (N + 4) -> in_ram_w (N + 8) ->
  in_ram_w P -> in_ram_w (P + 4) -> in_ram_w (P + 8) -> in_ram_w S -> S + 4 < 4294967296 ->
  (P + 12 <= N \/ N + 12 <= P) -> (S + 4 <= P \/ P + 12 <= S) -> (S + 4 <= N \/ N + 12 <= S) ->
  let H := ldw m N in
  0 <= H -> Z.testbit H 8 = false -> Z.testbit H 7 = false -> Z.testbit H 11 = false -> Z.testbit H 12 = false ->
  Z.testbit (PSW m) 7 = false ->
  0 <= R m R_SP < 4294967296 ->
  exists m1 m2,
    exec irc m = Ok 0 m1 /\ exec irr m1 = Ok 0 m2
    /\ R m2 R_PC = add32 (R m R_PC) 2 /\ R m2 R_SP = R m R_SP /\ R m2 R_PCBP = P /\ R m2 R_ISP = S
    /\ (forall i, 0 <= i <= 10 -> R m2 i = R m i)
    /\ (forall k, In k [21; 20; 19; 18; 16; 15; 14; 13; 12; 11; 10; 9; 7] -> Z.testbit (PSW m2) k = Z.testbit (PSW m) k)
    /\ (forall a, RAMB <= a -> (a < S \/ S + 4 <= a) -> (a < P \/ P + 12 <= a) -> ramb m2 a = ramb m a).
Proof.
  intros Hc Hr K W N P S N0 _ N8 P0 _ P8 HS _ D1 D2 D3 H _ HR HI H11 H12 PI Hsp.
  destruct (callps_retps false irc irr m Hc Hr K W HR HI H11 H12 PI)
    as (m1 & m2 & E1 & E2 & Pc & Sp & Pcb & Isp & Rg & Bits & Fr); auto using blk_words3.
  exists m1, m2. rewrite w32_id in Sp by assumption. repeat split; assumption.
Qed.
