(* Bus-level lemmas: routing, frames, alignment, ROM immutability, no access crashes. *)
From Coq Require Import ZArith Lia Bool List ZifyBool.
From Dmd Require Import Model.Bits Model.Fifo Model.Mem Model.Mouse Model.Duart Model.Bus.
From Dmd Require Import Gen.GenMemMap Spec.MemMapDoc Proofs.BitsLemmas Proofs.MemProofs.
Open Scope Z_scope.

Definition dev_doc (d : device) : docdev :=
  match d with DRom => DocRom | DDuart => DocDuart | DMouse => DocMouse
             | DVid => DocVid | DBbram => DocNvram | DRam => DocRam end.
Definition gdev_doc (d : gdev) : docdev :=
  match d with GRom => DocRom | GDuart => DocDuart | GMouse => DocMouse
             | GVid => DocVid | GBbram => DocNvram | GRam => DocRam end.

Lemma land1_mod a : Z.land a 1 = a mod 2.
Proof. change 1 with (Z.ones 1). rewrite Z.land_ones by lia. reflexivity. Qed.
Lemma land3_mod a : Z.land a 3 = a mod 4.
Proof. change 3 with (Z.ones 2). rewrite Z.land_ones by lia. reflexivity. Qed.

Ltac case_if := match goal with |- context [if ?c then _ else _] => destruct c eqn:? end.

(* The documented map has inclusive upper bounds and the code exclusive ones: with `a <= c` written as `a < c + 1`
   the two routers are the same chain of tests. *)
Lemma leb_ltb_succ a c : (a <=? c) = (a <? c + 1).
Proof. lia. Qed.

Definition dev_lo (d : device) : Z :=
  match d with DRom => 0 | DDuart => 2097152 | DMouse => 4194304 | DVid => 5242880 | DBbram => 6291456 | DRam => 7340032 end.
Definition dev_hi (d : device) : Z :=
  match d with DRom => 131072 | DDuart => 2097216 | DMouse => 4194308 | DVid => 5242882 | DBbram => 6299648 | DRam => 8388608 end.

Lemma get_device_range a d : get_device a = Some d ->
  match d with
  | DRom => a < 131072 | DDuart => 2097152 <= a < 2097216 | DMouse => 4194304 <= a < 4194308
  | DVid => 5242880 <= a < 5242882 | DBbram => 6291456 <= a < 6299648 | DRam => 7340032 <= a < 8388608 end.
Proof. unfold get_device. repeat (case_if; [intros [= <-]; lia|]). discriminate. Qed.

Lemma get_device_in d a : dev_lo d <= a < dev_hi d -> get_device a = Some d.
Proof. destruct d; cbn [dev_lo dev_hi]; intros H; unfold get_device; repeat if_lia; reflexivity. Qed.

Record bus_wf (b : bus) : Prop := {
  wf_rom : mbase (rom b) = 0 /\ msize (rom b) = 131072 /\ mro (rom b) = true;
  wf_vid : mbase (vid b) = 5242880 /\ msize (vid b) = 2 /\ mro (vid b) = false;
  wf_nv  : mbase (bbram b) = 6291456 /\ msize (bbram b) = 8192 /\ mro (bbram b) = false;
  wf_ram : mbase (ram b) = 7340032 /\ msize (ram b) = 1048576 /\ mro (ram b) = false }.

Lemma bus_new_wf now : bus_wf (bus_new now).
Proof. constructor; cbn; auto. Qed.

Definition is_memdev (d : device) : bool :=
  match d with DDuart | DMouse => false | _ => true end.

Lemma wf_dev b d : bus_wf b -> is_memdev d = true ->
  mbase (dev_mem b d) = dev_lo d /\ mend (dev_mem b d) = dev_hi d
  /\ mro (dev_mem b d) = match d with DRom => true | _ => false end.
Proof.
  intros [(?&?&?) (?&?&?) (?&?&?) (?&?&?)] M. unfold mend.
  destruct d; try discriminate; cbn [dev_mem dev_lo dev_hi]; repeat split; lia || assumption.
Qed.

Lemma routed_in_dev b a d : bus_wf b -> get_device a = Some d -> is_memdev d = true -> 0 <= a ->
  mbase (dev_mem b d) <= a < mend (dev_mem b d).
Proof.
  intros W G M Ha. destruct (wf_dev b d W M) as (-> & -> & _). apply get_device_range in G.
  destruct d; cbn [dev_lo dev_hi]; lia.
Qed.

Lemma mark_dirty_cases a b : mark_dirty a b = b \/ mark_dirty a b = with_dirty b true.
Proof. unfold mark_dirty. destruct (is_video_ram b a); auto. Qed.

Lemma dev_mem_mark_dirty a b d : dev_mem (mark_dirty a b) d = dev_mem b d.
Proof. destruct (mark_dirty_cases a b) as [-> | ->]; destruct d; reflexivity. Qed.

Lemma wf_mark_dirty a b : bus_wf b -> bus_wf (mark_dirty a b).
Proof. intros W. destruct (mark_dirty_cases a b) as [-> | ->]; [exact W|]. destruct W; constructor; assumption. Qed.

Lemma nodev_not_video a b : get_device a = None -> is_video_ram b a = false.
Proof.
  unfold is_video_ram. destruct ((7340032 <=? a) && (a <? 8388608)) eqn:E; [|reflexivity].
  now rewrite (get_device_in DRam a) by (cbn; lia).
Qed.

(* the three widths of access as one family *)
Definition aligned (w : width) (a : Z) : bool :=
  match w with W1 => true | W2 => Z.land a 1 =? 0 | W4 => Z.land a 3 =? 0 end.
Definition dev_read (w : width) : device -> Z -> bus -> res bus Z :=
  match w with W1 => dev_read_byte | W2 => dev_read_half | W4 => dev_read_word end.
Definition dev_write (w : width) : device -> Z -> Z -> bus -> res bus unit :=
  match w with W1 => dev_write_byte | W2 => dev_write_half | W4 => dev_write_word end.
Definition bus_read (w : width) : Z -> bus -> res bus Z :=
  match w with W1 => bus_read_byte | W2 => bus_read_half | W4 => bus_read_word end.
Definition bus_write (w : width) : Z -> Z -> bus -> res bus unit :=
  match w with W1 => bus_write_byte | W2 => bus_write_half | W4 => bus_write_word end.

Lemma bus_read_route w a b :
  bus_read w a b = if aligned w a
                   then match get_device a with Some d => dev_read w d a b | None => Err (EBus BNoDevice) b end
                   else Err (EBus BAlignment) b.
Proof. destruct w; cbn; unfold bus_read_half, bus_read_word; try destruct (_ =? _); reflexivity. Qed.

Lemma bus_write_route w a v b :
  bus_write w a v b =
    if aligned w a
    then match get_device a with
         | Some d => dev_write w d a (wtrunc w v) (mark_dirty a b)
         | None => Err (EBus BNoDevice) (mark_dirty a b) end
    else Err (EBus BAlignment) b.
Proof. destruct w; cbn; unfold bus_write_half, bus_write_word; try destruct (_ =? _); reflexivity. Qed.

(* Device::read_* / write_* by kind of device: the DUART serves every width by one byte access, the mouse only
   halfword reads, a memory the access itself *)
Lemma dev_read_nf w d a b :
  dev_read w d a b =
    match d with
    | DDuart => dev_read_byte DDuart (match w with W1 => a | W2 => a + 2 | W4 => a + 3 end) b
    | DMouse => match w with W2 => lift_r b (mouse_read_half (mouse_ b) a) | _ => Err (EBus BRead) b end
    | _ => lift_r b (mem_read w (dev_mem b d) a)
    end.
Proof. destruct w, d; reflexivity. Qed.

Lemma dev_write_nf w d a v b :
  dev_write w d a v b =
    match d with
    | DDuart => dev_write_byte DDuart (match w with W1 => a | W2 => a + 2 | W4 => a + 3 end)
                               (match w with W1 => v | _ => w8 v end) b
    | DMouse => Err (EBus BWrite) b
    | _ => dev_write_mem d b (mem_write w (dev_mem b d) a v)
    end.
Proof. destruct w, d; reflexivity. Qed.

Lemma nodev_read w a b : get_device a = None ->
  bus_read w a b = if aligned w a then Err (EBus BNoDevice) b else Err (EBus BAlignment) b.
Proof. intros H. now rewrite bus_read_route, H. Qed.

Lemma nodev_write w a v b : get_device a = None ->
  bus_write w a v b = if aligned w a then Err (EBus BNoDevice) b else Err (EBus BAlignment) b.
Proof. intros H. rewrite bus_write_route, H. unfold mark_dirty. now rewrite (nodev_not_video a b H). Qed.

Lemma unaligned w a v b : aligned w a = false ->
  bus_read w a b = Err (EBus BAlignment) b /\ bus_write w a v b = Err (EBus BAlignment) b.
Proof. intros H. now rewrite bus_read_route, bus_write_route, H. Qed.

Lemma if_either {A} (c : bool) (x y r : A) : r = (if c then x else y) -> r = x \/ r = y.
Proof. destruct c; auto. Qed.

Lemma rom_write w a v b : bus_wf b -> get_device a = Some DRom ->
  bus_write w a v b = if aligned w a then Err (EBus BWrite) b else Err (EBus BAlignment) b.
Proof.
  intros W H. rewrite bus_write_route, H, dev_write_nf, mem_write_nf. pose proof (get_device_range a DRom H) as L. cbn in L.
  unfold mark_dirty, is_video_ram. replace (7340032 <=? a) with false by lia. cbn [andb dev_mem].
  now replace (mro (rom b)) with true by (symmetry; apply W).
Qed.

(* what an access can do to the bus: nothing, a DUART update, or a run of bytes stored into one of the writable
   memories *)
Definition ramdev (d : device) : Prop := d = DVid \/ d = DBbram \/ d = DRam.

Inductive touched (b : bus) : bus -> Prop :=
| t_same : touched b b
| t_duart du : touched b (with_duart b du)
| t_store d off l : ramdev d -> 0 <= off -> touched b (set_dev_mem b d (mset_list (dev_mem b d) off l)).

Definition not_crash {S A} (r : res S A) : Prop :=
  match r with Panic | OutOfFuel => False | _ => True end.

Lemma duart_read_byte_nopanic off d : duart_read_byte off d <> RPanic.
Proof.
  unfold duart_read_byte.
  repeat match goal with
         | |- context [if ?c then _ else _] => destruct c
         | |- context [let (_, _) := ?x in _] => destruct x
         end; discriminate.
Qed.

Lemma dev_read_byte_touched d x b :
  match dev_read_byte d x b with Ok _ b' | Err _ b' => b' = b \/ exists du, b' = with_duart b du | _ => True end.
Proof.
  destruct d; cbn [dev_read_byte]; try (destruct (mem_read_byte _ _)); cbn; auto.
  destruct (duart_read_byte _ _) as [[v du]| |]; eauto.
Qed.

Lemma bus_read_touched w a b :
  match bus_read w a b with Ok _ b' | Err _ b' => b' = b \/ exists du, b' = with_duart b du | _ => True end.
Proof.
  rewrite bus_read_route. case_if; [|auto]. destruct (get_device a) as [d|]; [|auto].
  rewrite dev_read_nf. destruct d; try (destruct (mem_read w _ a); cbn; auto).
  - apply dev_read_byte_touched.
  - destruct w; try (destruct (mouse_read_half _ _)); cbn; auto.
Qed.

(* every fault but the alignment one is raised after the dirty flag was set *)
Lemma bus_write_touched w a v b : bus_wf b ->
  match bus_write w a v b with
  | Ok _ b' => touched (mark_dirty a b) b'
  | Err _ b' => b' = if aligned w a then mark_dirty a b else b
  | _ => False
  end.
Proof.
  intros W. rewrite bus_write_route. case_if; [|reflexivity]. pose proof (wf_mark_dirty a b W) as W1.
  destruct (get_device a) as [d|] eqn:G; [|reflexivity].
  rewrite dev_write_nf. destruct (is_memdev d) eqn:M; [|destruct d; try discriminate; constructor].
  destruct (wf_dev _ d W1 M) as (B & E & R). rewrite mem_write_nf, R, B. apply get_device_range in G.
  destruct d; try discriminate; cbn [dev_lo dev_write_mem]; [reflexivity|..].
  all: case_if; [reflexivity|]; if_lia; apply t_store; unfold ramdev; auto; lia.
Qed.

Lemma touched_rom b b' : touched b b' -> rom b' = rom b.
Proof. intros [|du|d off l [->|[->| ->]] _]; reflexivity. Qed.

Lemma touched_wf b b' : bus_wf b -> touched b b' -> bus_wf b'.
Proof.
  intros W [|du|d off l D _]; [exact W | destruct W; constructor; assumption |].
  destruct (mset_list_geom l (dev_mem b d) off) as (B & S & R).
  destruct W, D as [->|[->| ->]]; constructor; cbn [set_dev_mem dev_mem rom vid bbram ram with_vid with_bbram with_ram] in *;
    try assumption; now rewrite B, S, R.
Qed.

Lemma bus_write_nocrash w b a v : bus_wf b -> not_crash (bus_write w a v b).
Proof. intros W. pose proof (bus_write_touched w a v b W). now destruct (bus_write w a v b). Qed.

Definition res_rom_same {A} (b : bus) (r : res bus A) : Prop :=
  match r with Ok _ b' | Err _ b' => rom b' = rom b | _ => True end.

Lemma write_keeps_rom w a v b : bus_wf b -> res_rom_same b (bus_write w a v b).
Proof.
  intros W. pose proof (bus_write_touched w a v b W) as T. unfold res_rom_same.
  destruct (bus_write w a v b); auto; [rewrite (touched_rom _ _ T) | subst; case_if; [|reflexivity]];
    destruct (mark_dirty_cases a b) as [-> | ->]; reflexivity.
Qed.

Definition same_except (d : device) (b b' : bus) : Prop :=
  (d <> DRom -> rom b' = rom b) /\ (d <> DDuart -> duart_ b' = duart_ b)
  /\ (d <> DMouse -> mouse_ b' = mouse_ b) /\ (d <> DVid -> vid b' = vid b)
  /\ (d <> DBbram -> bbram b' = bbram b) /\ (d <> DRam -> ram b' = ram b).

Definition res_frame {A} (d : device) (b : bus) (r : res bus A) : Prop :=
  match r with Ok _ b' | Err _ b' => same_except d b b' | _ => True end.

Lemma same_except_refl d b : same_except d b b.
Proof. unfold same_except; tauto. Qed.

Lemma lift_r_frame {A} d b (r : rres A) : res_frame d b (lift_r b r).
Proof. destruct r; cbn; auto using same_except_refl. Qed.

Lemma bus_read_frame w a b d : get_device a = Some d -> res_frame d b (bus_read w a b).
Proof.
  intros H. rewrite bus_read_route, H. case_if; [|apply same_except_refl]. rewrite dev_read_nf.
  destruct d; try apply lift_r_frame.
  - cbn [dev_read_byte]. destruct (duart_read_byte _ _) as [[v du]| |]; cbn; auto using same_except_refl.
    unfold same_except; cbn; tauto.
  - destruct w; try apply lift_r_frame; apply same_except_refl.
Qed.

Lemma bus_write_frame w a v b d : get_device a = Some d -> res_frame d b (bus_write w a v b).
Proof.
  intros H. rewrite bus_write_route, H. case_if; [|apply same_except_refl]. rewrite dev_write_nf.
  assert (S : same_except d b (mark_dirty a b))
    by (destruct (mark_dirty_cases a b) as [-> | ->]; unfold same_except; cbn; tauto).
  destruct d; try destruct (mem_write w _ a _); cbn; auto; unfold same_except in *; cbn; intuition congruence.
Qed.

Lemma data_read_mem w a b d : get_device a = Some d -> is_memdev d = true -> aligned w a = true ->
  bus_read w a b = lift_r b (mem_read w (dev_mem b d) a).
Proof. intros H M A. rewrite bus_read_route, A, H, dev_read_nf. destruct d; try discriminate; reflexivity. Qed.

Lemma data_read_half_mem a b d :
  get_device a = Some d -> is_memdev d = true -> Z.land a 1 = 0 ->
  bus_read_half a b = lift_r b (mem_read_half (dev_mem b d) a).
Proof. intros H M A. apply (data_read_mem W2); auto. cbn. now rewrite A. Qed.
Lemma data_read_word_mem a b d :
  get_device a = Some d -> is_memdev d = true -> Z.land a 3 = 0 ->
  bus_read_word a b = lift_r b (mem_read_word (dev_mem b d) a).
Proof. intros H M A. apply (data_read_mem W4); auto. cbn. now rewrite A. Qed.

Lemma mem_read_byte_pure a b d :
  get_device a = Some d -> d <> DDuart ->
  match bus_read_byte a b with Ok _ b' | Err _ b' => b' = b | _ => True end.
Proof.
  intros H N. rewrite (bus_read_route W1), H. cbn [aligned]. rewrite dev_read_nf.
  destruct d; try congruence; try destruct (mem_read W1 _ a); cbn; auto.
Qed.

Lemma bus_read_nocrash w b a : bus_wf b -> 0 <= a -> not_crash (bus_read w a b).
Proof.
  intros W Ha. rewrite bus_read_route. case_if; [|exact I]. destruct (get_device a) as [d|] eqn:G; [|exact I].
  rewrite dev_read_nf. destruct (is_memdev d) eqn:M.
  - pose proof (proj1 (routed_in_dev b a d W G M Ha)) as L. rewrite mem_read_nf.
    destruct d; try discriminate; cbn [dev_mem] in *; (case_if; [exact I|]); now if_lia.
  - destruct d; try discriminate.
    + cbn [dev_read_byte]. pose proof (duart_read_byte_nopanic (match w with W1 => a | W2 => a + 2 | W4 => a + 3 end - 2097152) (duart_ b)).
      destruct (duart_read_byte _ _) as [[? ?]| |]; cbn; auto.
    + destruct w; try exact I. unfold mouse_read_half. repeat case_if; exact I.
Qed.

Lemma dev_read_byte_mem d x b : is_memdev d = true -> dev_read_byte d x b = lift_r b (mem_read_byte (dev_mem b d) x).
Proof. destruct d; try discriminate; reflexivity. Qed.

(* one byte of the fetch: a successful read of the memory, leaving the bus as it is *)
Ltac fetch_byte M :=
  rewrite dev_read_byte_mem by exact M;
  match goal with |- context [lift_r _ ?r] => destruct r as [?x| |] eqn:? end; cbn [lift_r bind]; try discriminate.
