(* The opcodes the model's dispatch knows are opcodes the source's dispatch `match` has arms for (the arm patterns
   are translated from cpu.rs on every run into Gen/GenDispatch.v): an instruction whose opcode is in no source arm
   is an illegal opcode in the model, whatever its operands and the machine state (Props/C04.v; here the list of
   source arm opcodes and the conditional-branch part of the argument). *)
From Coq Require Import ZArith Lia Bool List.
From Dmd Require Import Model.Bits Model.Types Model.Mem Model.Bus Model.Decode Model.Cpu.
From Dmd Require Import Gen.GenDispatch Proofs.Arms.
Open Scope Z_scope.

Definition source_arm_opcodes : list Z := concat g_dispatch_arms.
Definition inb (c : Z) (l : list Z) : bool := existsb (Z.eqb c) l.

Section NoArm.
Variable opc : Z.
Hypothesis H : forall c, inb c source_arm_opcodes = true -> (opc =? c) = false.

Lemma branch_pred_none n z v c : g_branch_pred opc n z v c = None.
Proof. unfold g_branch_pred. repeat (apply else_branch; [apply H; reflexivity|]). reflexivity. Qed.
End NoArm.

(* a sanity bound on how many opcodes the source's dispatch names *)
Example source_arm_count : (120 <= length source_arm_opcodes <= 200)%nat.
Proof. vm_compute. lia. Qed.
