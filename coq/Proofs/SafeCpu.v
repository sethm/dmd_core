(* C12 at machine level: from a well-formed machine state (bus geometry, byte-valued cells, 32-bit registers) every
   operand access, every dispatch arm and interrupt entry complete, fault or return an error, keeping the state well
   formed and ROM unchanged; they never panic and never exhaust the loop bound.

   `safe` is closed under the combinators the interpreter is written with (`safe_bind`, `safe_if`, `safe_ok`,
   `safe_err`) and each primitive has its `safe_X` lemma.  The side conditions are of three kinds -- the state is
   still well formed (`st`), a value is a 32-bit value (`W32`), an address is non-negative -- and are left to `eauto`
   with the hint database `safe`, which holds one lemma per state transformer and per datapath operation. *)
From Coq Require Import ZArith Lia Bool List ZifyBool.
From Dmd Require Import Model.Bits Model.Types Model.Mem Model.Duart Model.Bus Model.Decode Model.Cpu.
From Dmd Require Import Gen.GenDispatch.
From Dmd Require Import Proofs.BitsLemmas Proofs.RegKit Proofs.MemProofs Proofs.BusProofs Proofs.OperandProofs Proofs.SafeBus Proofs.LoopTerm.
Open Scope Z_scope.

Definition W32 (x : Z) : Prop := 0 <= x < 4294967296.

Definition regs_ok (r : regs) : Prop :=
  W32 (r0 r) /\ W32 (r1 r) /\ W32 (r2 r) /\ W32 (r3 r) /\ W32 (r4 r) /\ W32 (r5 r) /\ W32 (r6 r) /\ W32 (r7 r)
  /\ W32 (r8 r) /\ W32 (r9 r) /\ W32 (r10 r) /\ W32 (r11 r) /\ W32 (r12 r) /\ W32 (r13 r) /\ W32 (r14 r) /\ W32 (r15 r).

Definition mwf (m : mach) : Prop := bwf (mbus m) /\ regs_ok (mregs m).
Definition st (m0 m : mach) : Prop := mwf m /\ rom (mbus m) = rom (mbus m0).

Definition safe {A} (m0 : mach) (P : A -> Prop) (r : res mach A) : Prop :=
  match r with
  | Ok a m => st m0 m /\ P a
  | Err _ m => st m0 m
  | Panic => False
  | OutOfFuel => False
  end.

Lemma st_refl m : mwf m -> st m m.
Proof. intros. split; auto. Qed.

Lemma rget_range r i : regs_ok r -> W32 (rget r i).
Proof. unfold regs_ok, rget. intros H. repeat (destruct (i =? _); [tauto|]). tauto. Qed.

Lemma rset_ok r i v : regs_ok r -> W32 v -> regs_ok (rset r i v).
Proof.
  intros (H0 & H1 & H2 & H3 & H4 & H5 & H6 & H7 & H8 & H9 & H10 & H11 & H12 & H13 & H14 & H15) Hv.
  (* split on the index while regs_ok is still folded: one copy of the sixteen rows of rset, not sixteen *)
  unfold rset.
  repeat (destruct (i =? _); [unfold regs_ok; repeat (apply conj; [assumption|]); assumption|]).
  unfold regs_ok; repeat (apply conj; [assumption|]); assumption.
Qed.

Lemma R_range m0 m i : st m0 m -> W32 (R m i).
Proof. intros [[_ H] _]. now apply rget_range. Qed.

Lemma st_setR m0 m i v : st m0 m -> W32 v -> st m0 (setR m i v).
Proof.
  intros [[Wb Wr] Hr] Hv. split; [split|]; cbn [mbus mregs setR with_regs]; auto. now apply rset_ok.
Qed.

Lemma safe_bind {A B} m0 (P : A -> Prop) (Q : B -> Prop) (r : res mach A) (k : A -> mach -> res mach B) :
  safe m0 P r -> (forall a m, st m0 m -> P a -> safe m0 Q (k a m)) -> safe m0 Q (bind r k).
Proof. destruct r; cbn; auto. intros [? ?] K. now apply K. Qed.

Lemma safe_weaken {A} m0 (P Q : A -> Prop) r : safe m0 P r -> (forall a, P a -> Q a) -> safe m0 Q r.
Proof. destruct r; cbn; auto. intros [? ?] K. split; auto. Qed.

Lemma safe_ok {A} m0 (P : A -> Prop) a m : st m0 m -> P a -> safe m0 P (Ok a m).
Proof. cbn. auto. Qed.
Lemma safe_err {A} m0 (P : A -> Prop) e m : st m0 m -> safe m0 P (@Err mach A e m).
Proof. cbn. auto. Qed.
Lemma safe_if {A} m0 (P : A -> Prop) (c : bool) (X Y : res mach A) :
  safe m0 P X -> safe m0 P Y -> safe m0 P (if c then X else Y).
Proof. destruct c; auto. Qed.

Lemma safe_liftb {A} m0 m (P : A -> Prop) (f : bus -> res bus A) :
  st m0 m -> bsafe (mbus m) P (f (mbus m)) -> safe m0 P (liftb f m).
Proof.
  intros [[Wb Wr] Hr] H. unfold liftb. destruct (f (mbus m)); cbn in *; auto.
  - destruct H as [? [? ?]]. split; [split; [split|]|]; cbn; auto; congruence.
  - destruct H as [? ?]. split; [split|]; cbn; auto; congruence.
Qed.

Lemma safe_rd_byte m0 m a : st m0 m -> 0 <= a -> safe m0 (fun v => 0 <= v < 256) (rd_byte a m).
Proof. intros S Ha. apply safe_liftb; auto. apply (bus_read_safe W1); auto. apply S. Qed.
Lemma safe_rd_half m0 m a : st m0 m -> 0 <= a -> safe m0 (fun v => 0 <= v < 65536) (rd_half a m).
Proof. intros S Ha. apply safe_liftb; auto. apply (bus_read_safe W2); auto. apply S. Qed.
Lemma safe_rd_word m0 m a : st m0 m -> 0 <= a -> safe m0 W32 (rd_word a m).
Proof. intros S Ha. apply safe_liftb; auto. apply (bus_read_safe W4); auto. apply S. Qed.
Lemma safe_wr_byte m0 m a v : st m0 m -> safe m0 (fun _ => True) (wr_byte a v m).
Proof. intros S. apply safe_liftb; auto. apply (bus_write_safe W1). apply S. Qed.
Lemma safe_wr_half m0 m a v : st m0 m -> safe m0 (fun _ => True) (wr_half a v m).
Proof. intros S. apply safe_liftb; auto. apply (bus_write_safe W2). apply S. Qed.
Lemma safe_wr_word m0 m a v : st m0 m -> safe m0 (fun _ => True) (wr_word a v m).
Proof. intros S. apply safe_liftb; auto. apply (bus_write_safe W4). apply S. Qed.

Lemma W32_of_bits x : 0 <= x -> (forall n, 32 <= n -> Z.testbit x n = false) -> W32 x.
Proof.
  intros H0 H. split; [exact H0|]. destruct (Z.eq_dec x 0) as [->|N0]; [lia|].
  destruct (Z.lt_ge_cases x 4294967296) as [L|G]; [exact L|]. exfalso.
  assert (Hl : 32 <= Z.log2 x) by (change 32 with (Z.log2 (2 ^ 32)); apply Z.log2_le_mono; lia).
  specialize (H (Z.log2 x) Hl). rewrite Z.bit_log2 in H by lia. discriminate.
Qed.
Lemma land_W32 a b : W32 a -> W32 (Z.land a b).
Proof.
  intros Ha. apply W32_of_bits; [apply Z.land_nonneg; left; apply Ha|].
  intros n Hn. rewrite Z.land_spec, (testbit_small a n Ha Hn). reflexivity.
Qed.
Lemma lor_W32 a b : W32 a -> W32 b -> W32 (Z.lor a b).
Proof.
  intros Ha Hb. apply W32_of_bits; [apply Z.lor_nonneg; split; [apply Ha|apply Hb]|].
  intros n Hn. rewrite Z.lor_spec, (testbit_small a n Ha Hn), (testbit_small b n Hb Hn). reflexivity.
Qed.
Lemma lxor_W32 a b : W32 a -> W32 b -> W32 (Z.lxor a b).
Proof.
  intros Ha Hb. apply W32_of_bits; [apply Z.lxor_nonneg; split; intros; [apply Hb|apply Ha]|].
  intros n Hn. rewrite Z.lxor_spec, (testbit_small a n Ha Hn), (testbit_small b n Hb Hn). reflexivity.
Qed.
Lemma shiftr_W32 a n : W32 a -> 0 <= n -> W32 (Z.shiftr a n).
Proof.
  intros [H0 H1] Hn. rewrite Z.shiftr_div_pow2 by lia. split; [apply Z.div_pos; lia|].
  apply Z.le_lt_trans with a; [|lia]. apply Z.div_le_upper_bound; [lia|]. nia.
Qed.
Lemma not32_W32 a : W32 a -> W32 (not32 a).
Proof. unfold W32, not32. lia. Qed.
Lemma clr32_W32 x c : W32 x -> W32 (clr32 x c).
Proof. apply land_W32. Qed.
Lemma w32_W32 x : W32 (w32 x).
Proof. apply w32_range. Qed.
Lemma sext8_W32 x : W32 (sext8 x).
Proof. apply sext8_range. Qed.
Lemma sext16_W32 x : W32 (sext16 x).
Proof. apply sext16_range. Qed.
Lemma add32_W32 a b : W32 (add32 a b).
Proof. apply w32_range. Qed.
Lemma sub32_W32 a b : W32 (sub32 a b).
Proof. apply w32_range. Qed.
Lemma add_offset_W32 v o : W32 (add_offset v o).
Proof. apply w32_range. Qed.
Lemma w8_W32 x : W32 (w8 x).
Proof. pose proof (w8_range x). unfold W32. lia. Qed.
Lemma w16_W32 x : W32 (w16 x).
Proof. pose proof (w16_range x). unfold W32. lia. Qed.
Lemma rotr32_W32 b a : W32 b -> 0 <= a -> W32 (rotr32 b a).
Proof. intros. unfold rotr32. destruct (a =? 0); auto using lor_W32, shiftr_W32, w32_W32. Qed.
Lemma land31_nonneg b : 0 <= Z.land b 31.
Proof. apply Z.land_nonneg. right. lia. Qed.
Lemma W32_nonneg x : W32 x -> 0 <= x.
Proof. intros [H _]. exact H. Qed.
Lemma usub_nonneg a b : 0 <= usub a b.
Proof. unfold usub, w64. apply Z.mod_pos_bound. lia. Qed.
Lemma byte_W32 v : 0 <= v < 256 -> W32 v.
Proof. unfold W32. lia. Qed.
Lemma half_W32 v : 0 <= v < 65536 -> W32 v.
Proof. unfold W32. lia. Qed.

Lemma version_W32 : W32 WE32100_VERSION.
Proof. unfold W32, WE32100_VERSION. lia. Qed.

(* constants stay folded when a hint is matched against a goal: otherwise a failing match of, say,
   `Z.shiftr ?a ?n` against `Z.lor x y` unfolds both *)
Create HintDb safe.
#[export] Hint Constants Opaque : safe.
#[export] Hint Resolve land_W32 lor_W32 lxor_W32 not32_W32 clr32_W32 w32_W32 add32_W32 sub32_W32 add_offset_W32 sext8_W32 sext16_W32
  w8_W32 w16_W32 rotr32_W32 shiftr_W32 land31_nonneg usub_nonneg version_W32 : safe.
#[export] Hint Resolve W32_nonneg | 5 : safe.
#[export] Hint Extern 1 (W32 (R _ _)) => eapply R_range : safe.
#[export] Hint Extern 1 (W32 (PSW _)) => eapply R_range : safe.
#[export] Hint Extern 1 (W32 (match ?d with DNone => _ | _ => _ end)) => destruct d : safe.
#[export] Hint Extern 1 (W32 Z0) => unfold W32; lia : safe.
#[export] Hint Extern 1 (W32 (Zpos _)) => unfold W32; lia : safe.
#[export] Hint Extern 8 (0 <= _) => lia : safe.

Lemma st_setPSW m0 m v : st m0 m -> W32 v -> st m0 (setPSW m v).
Proof. intros. now apply st_setR. Qed.
Lemma st_setf m0 m mask v : st m0 m -> W32 mask -> st m0 (setf mask v m).
Proof. intros S Hm. unfold setf. apply st_setPSW; auto. destruct v; eauto with safe. Qed.
Lemma st_set_c m0 m v : st m0 m -> st m0 (set_c v m).
Proof. intros. apply st_setf; eauto with safe. Qed.
Lemma st_set_v m0 m v : st m0 m -> st m0 (set_v v m).
Proof. intros. apply st_setf; eauto with safe. Qed.
Lemma st_set_z m0 m v : st m0 m -> st m0 (set_z v m).
Proof. intros. apply st_setf; eauto with safe. Qed.
Lemma st_set_n m0 m v : st m0 m -> st m0 (set_n v m).
Proof. intros. apply st_setf; eauto with safe. Qed.
Lemma st_set_nz m0 m v o : st m0 m -> st m0 (set_nz_flags v o m).
Proof. intros. unfold set_nz_flags. destruct (otype o); auto using st_set_z, st_set_n. Qed.
Lemma st_set_vop m0 m v o : st m0 m -> st m0 (set_v_flag_op v o m).
Proof. intros. unfold set_v_flag_op. destruct (otype o); auto using st_set_v. Qed.
Lemma st_psw_enter_1 m0 m : st m0 m -> st m0 (psw_enter_1 m).
Proof. intros S. unfold psw_enter_1. apply st_setPSW; eauto 8 with safe. Qed.
Lemma st_psw_enter_2 m0 m : st m0 m -> st m0 (psw_enter_2 m).
Proof. intros S. unfold psw_enter_2. apply st_setPSW; eauto 8 with safe. Qed.
#[export] Hint Resolve st_set_c st_set_v st_set_z st_set_n st_set_nz st_set_vop st_setR st_setPSW
  st_psw_enter_1 st_psw_enter_2 : safe.

(* `safe_walk` takes a computation apart along bind / if / Ok / Err and hands every leaf to the database.  At a bind
   the first computation is done first, so that its lemma fixes the postcondition the continuation may assume. *)
Ltac safe_walk :=
  repeat lazymatch goal with
  | |- safe _ _ (if _ then _ else _) => simple apply safe_if
  | |- safe _ _ (bind (if _ then _ else _) _) => simple eapply (safe_bind _ (fun _ => True)); [|intros ? ? ? ?]
  | |- safe _ _ (bind _ _) => simple eapply safe_bind; [solve [eauto 40 with safe] | intros ? ? ? ?]
  | |- safe _ _ (Ok _ _) => simple apply safe_ok; [solve [eauto 40 with safe] | exact I]
  | |- safe _ _ (Err _ _) => simple apply safe_err; solve [eauto 40 with safe]
  | |- safe _ _ (match oreg ?o with Some _ => _ | None => _ end) => destruct (oreg o)
  | |- safe _ _ _ => solve [eauto 40 with safe]
  end.

Section Exec.
Variable ir : instr.
Definition instr_ok : Prop := forall k, W32 (oemb (get_op ir k)).
Hypothesis IOK : instr_ok.
Variable m0 : mach.

Lemma safe_ea k m : st m0 m -> safe m0 W32 (effective_address ir k m).
Proof.
  intros S. unfold effective_address. cbv zeta. pose proof (IOK k) as He.
  destruct (omode (get_op ir k)); unfold illegalM, fail, ret;
    try (destruct (oreg (get_op ir k))); 
    first [solve [apply safe_ok; eauto with safe] | solve [apply safe_err; assumption]
          | solve [apply safe_rd_word; eauto with safe]].
Qed.

Lemma safe_load t eff m : st m0 m -> 0 <= eff -> safe m0 W32 (load t eff m).
Proof.
  intros S He. destruct t; unfold load, illegalM, fail.
  - apply safe_err; auto.
  - eapply safe_weaken; [apply safe_rd_byte; auto | exact byte_W32].
  - eapply safe_bind; [apply safe_rd_half; auto|]. intros. apply safe_ok; eauto with safe.
  - apply safe_rd_word; auto.
  - eapply safe_bind; [apply safe_rd_byte; auto|]. intros. apply safe_ok; eauto with safe.
  - eapply safe_weaken; [apply safe_rd_half; auto | exact half_W32].
  - apply safe_rd_word; auto.
Qed.

Lemma safe_store t eff v m : st m0 m -> safe m0 (fun _ => True) (store t eff v m).
Proof.
  intros S. destruct t; unfold store, illegalM, fail;
    first [apply safe_err; assumption | apply safe_wr_byte; auto | apply safe_wr_half; auto | apply safe_wr_word; auto].
Qed.

Lemma safe_read_op k m : st m0 m -> safe m0 W32 (read_op ir k m).
Proof.
  intros S. unfold read_op. cbv zeta. pose proof (IOK k) as He.
  destruct (omode (get_op ir k));
    try (eapply safe_bind; [apply safe_ea; auto | intros eff m1 S1 [E0 E1]; now apply safe_load]);
    try solve [apply safe_ok; eauto with safe].
  destruct (oreg (get_op ir k)); [|apply safe_err; auto].
  destruct (data_type (get_op ir k)); unfold illegalM, fail;
    first [solve [apply safe_err; assumption] | solve [apply safe_ok; eauto with safe]].
Qed.

Lemma safe_write_op k v m : st m0 m -> W32 v -> safe m0 (fun _ => True) (write_op ir k v m).
Proof.
  intros S Hv. unfold write_op. cbv zeta.
  destruct (omode (get_op ir k));
    try (eapply safe_bind; [apply safe_ea; auto | intros eff m1 S1 _; now apply safe_store]);
    unfold illegalM, fail; try (apply safe_err; auto).
  destruct (oreg (get_op ir k)); [|apply safe_err; auto]. apply safe_ok; eauto with safe.
Qed.

#[local] Hint Resolve safe_rd_word safe_wr_word safe_ea safe_read_op safe_write_op : safe.

Lemma safe_stack_push v m : st m0 m -> safe m0 (fun _ => True) (stack_push v m).
Proof. intros S. unfold stack_push. safe_walk. Qed.
Lemma safe_stack_pop m : st m0 m -> safe m0 W32 (stack_pop m).
Proof.
  intros S. unfold stack_pop. eapply safe_bind; [apply safe_rd_word; eauto with safe|].
  intros v m1 S1 Hv. apply safe_ok; eauto with safe.
Qed.
Lemma safe_irq_push v m : st m0 m -> safe m0 (fun _ => True) (irq_push v m).
Proof. intros S. unfold irq_push. safe_walk. Qed.
Lemma safe_irq_pop m : st m0 m -> safe m0 W32 (irq_pop m).
Proof.
  intros S. unfold irq_pop. cbv zeta.
  assert (S1 : st m0 (setR m R_ISP (sub32 (R m R_ISP) 4))) by eauto with safe.
  apply safe_rd_word; eauto with safe.
Qed.

Lemma safe_add_op a b dst m : st m0 m -> safe m0 (fun _ => True) (add_op ir a b dst m).
Proof.
  intros S. unfold add_op. cbv zeta. eapply safe_bind; [apply safe_write_op; eauto with safe|].
  intros _ m1 S1 _. destruct (data_type (get_op ir dst)); unfold illegalM, fail; safe_walk.
Qed.
Lemma safe_sub_op a b dst m : st m0 m -> safe m0 (fun _ => True) (sub_op ir a b dst m).
Proof. intros S. unfold sub_op. cbv zeta. safe_walk. Qed.

Lemma safe_alu_std (f : Z -> Z -> Z) dst m :
  (forall a b, W32 a -> W32 b -> W32 (f a b)) -> st m0 m -> safe m0 (fun _ => True) (alu_std ir f dst m).
Proof. intros Hf S. unfold alu_std. safe_walk. Qed.

Lemma div_val_W32 a b t q : W32 a -> W32 b -> div_val a b t = Some q -> W32 q.
Proof.
  intros Ha Hb. unfold div_val.
  destruct t; repeat match goal with |- context [if ?c then _ else _] => destruct c eqn:? end;
    intros E; inversion E; subst; eauto with safe.
  all: unfold W32 in *; try (pose proof (w16_range a); pose proof (w16_range b));
       try (pose proof (w8_range a); pose proof (w8_range b)).
  all: split; [apply Z.div_pos; lia | apply Z.div_lt_upper_bound; nia].
Qed.
Lemma mod_val_W32 a b t q : W32 a -> mod_val a b t = Some q -> W32 q.
Proof.
  intros Ha. unfold mod_val.
  destruct t; repeat match goal with |- context [if ?c then _ else _] => destruct c eqn:? end;
    intros E; inversion E; subst; eauto with safe.
  all: unfold W32 in *; try (pose proof (w16_range a); pose proof (w16_range b));
       try (pose proof (w8_range a); pose proof (w8_range b)).
  all: match goal with |- _ <= ?x mod ?y < _ => assert (0 <= x mod y < y) by (apply Z.mod_pos_bound; lia); lia end.
Qed.

Lemma safe_div_arm dst oa ob m : st m0 m -> safe m0 (fun _ => True) (div_arm ir dst oa ob m).
Proof.
  intros S. unfold div_arm, zerodiv, fail.
  eapply safe_bind; [apply safe_read_op; auto|]. intros a m1 S1 Ha.
  eapply safe_bind; [apply safe_read_op; auto|]. intros b m2 S2 Hb.
  destruct (a =? 0); [apply safe_err; auto|].
  destruct (div_val a b (otype (get_op ir 1))) as [q|] eqn:Eq; [|apply safe_err; auto].
  assert (Hq : W32 q) by exact (div_val_W32 a b (otype (get_op ir 1)) q Ha Hb Eq).
  eapply safe_bind; [apply safe_write_op; auto|]. intros _ m3 S3 _.
  apply safe_ok; auto. destruct ((a =? oa) && (b =? ob)); eauto 8 with safe.
Qed.
Lemma safe_mod_arm dst m : st m0 m -> safe m0 (fun _ => True) (mod_arm ir dst m).
Proof.
  intros S. unfold mod_arm, zerodiv, fail.
  eapply safe_bind; [apply safe_read_op; auto|]. intros a m1 S1 Ha.
  eapply safe_bind; [apply safe_read_op; auto|]. intros b m2 S2 Hb.
  destruct (a =? 0); [apply safe_err; auto|].
  destruct (mod_val a b (otype (get_op ir 1))) as [q|] eqn:Eq; [|apply safe_err; auto].
  assert (Hq : W32 q) by exact (mod_val_W32 a b (otype (get_op ir 1)) q Ha Eq).
  safe_walk.
Qed.

Lemma st_R0 m : st m0 m -> 0 <= R m 0 < 4294967296.
Proof. intros S. apply (R_range m0 m 0 S). Qed.

Definition adv (d lo : Z) (m m' : mach) : Prop := st m0 m' /\ exists n, lo <= n /\ chain d (R m 0) (R m' 0) n.

(* what one turn of a loop body has to do: a further turn costs at least one access *)
Definition lstep (d : Z) (m : mach) (r : lres) : Prop :=
  match r with
  | LDone m' => adv d 0 m m'
  | LCont m' => adv d 1 m m'
  | LErr _ m' => st m0 m'
  | LPanic | LFuel => False
  end.

Lemma adv_refl d m : st m0 m -> adv d 0 m m.
Proof. intros S. split; [exact S|]. exists 0. split; [lia|]. apply chain_zero, st_R0, S. Qed.

Lemma adv_trans d a b m1 m2 m3 : adv d a m1 m2 -> adv d b m2 m3 -> adv d (a + b) m1 m3.
Proof. intros (_ & n & Hn & C1) (S3 & k & Hk & C2). split; [exact S3|]. exists (n + k). split; [lia | eapply chain_app; eauto]. Qed.

Lemma lbind_step {A} d m (P : A -> Prop) (r : res mach A) (k : A -> mach -> lres) :
  safe m0 P r -> (forall a m1, r = Ok a m1 -> st m0 m1 -> P a -> lstep d m (k a m1)) -> lstep d m (lbind r k).
Proof. destruct r; cbn; auto. intros [? ?] K. now apply K. Qed.

Lemma run_loop_spec d body m : 1 <= d <= 4 -> (forall m, st m0 m -> lstep d m (body m)) -> st m0 m ->
  match run_loop body m with Ok _ m' => adv d 0 m m' | Err _ m' => st m0 m' | _ => False end.
Proof.
  intros Hd Hb S.
  assert (Cont : forall m m', st m0 m -> body m = LCont m' -> adv d 1 m m')
    by (intros m1 m2 S1 B; specialize (Hb m1 S1); now rewrite B in Hb).
  assert (Done : forall m m', st m0 m -> body m = LDone m' -> adv d 0 m m')
    by (intros m1 m2 S1 B; specialize (Hb m1 S1); now rewrite B in Hb).
  pose proof (loop_fuel_suffices d Hd body (st m0) st_R0 Cont m S) as NC.
  pose proof (run_loop_done d body (st m0) Cont Done m) as D.
  assert (E : forall p m, st m0 m -> match iter_loop p body m with LErr _ m' => st m0 m' | LPanic | LFuel => False | _ => True end).
  { (* the state after q continuing turns is well formed again (iterN_chain), so the second half may run *)
    induction p as [q IH|q IH|]; intros m1 S1; cbn [iter_loop].
    - specialize (Hb m1 S1). destruct (body m1) as [m2|m2|e m2| |]; auto. destruct Hb as [S2 _].
      pose proof (IH m2 S2) as K. destruct (iter_loop q body m2) as [m3|m3|e m3| |] eqn:E2; auto.
      rewrite iter_loop_iterN in E2. apply IH. apply (iterN_chain d body (st m0) st_R0 Cont _ _ _ S2 E2).
    - pose proof (IH m1 S1) as K. destruct (iter_loop q body m1) as [m2|m2|e m2| |] eqn:E1; auto.
      rewrite iter_loop_iterN in E1. apply IH. apply (iterN_chain d body (st m0) st_R0 Cont _ _ _ S1 E1).
    - specialize (Hb m1 S1). destruct (body m1); auto. }
  specialize (E loop_fuel m S). unfold run_loop.
  destruct (iter_loop loop_fuel body m) as [m1|m1|e m1| |] eqn:Ei; auto; [|exact (NC m1 eq_refl)].
  apply (D m1 S). unfold run_loop. now rewrite Ei.
Qed.

Lemma liftb_R {A} (f : bus -> res bus A) m a m' i : liftb f m = Ok a m' -> R m' i = R m i.
Proof. intros H. apply liftb_ok in H. destruct H as [_ H]. now apply R_of_regs. Qed.

Lemma read_link w d m v m1 : st m0 m -> liftb (bus_read w (R m 0)) m = Ok v m1 -> chain d (R m 0) (add32 (R m 0) d) 1.
Proof. intros S E. apply chain_one; [exact (read_ok_mapped w _ m v m1 E) | apply st_R0, S]. Qed.

Lemma movblw_body_step m : st m0 m -> lstep 4 m (movblw_body m).
Proof.
  intros S. unfold movblw_body. destruct (R m 2 =? 0); [now apply adv_refl|].
  eapply lbind_step; [apply safe_rd_word; eauto with safe|]. intros a m1 E1 S1 Ha.
  eapply lbind_step; [apply safe_wr_word; auto|]. intros u m2 E2 S2 _.
  split; [eauto 8 with safe|]. exists 1. split; [lia|].
  rewrite R_setR_other by lia. rewrite R_setR_same. rewrite R_setR_other by lia.
  rewrite (liftb_R _ m1 u m2 0 E2), (liftb_R _ m a m1 0 E1). exact (read_link W4 4 m a m1 S E1).
Qed.

Lemma strend_body_step m : st m0 m -> lstep 1 m (strend_body m).
Proof.
  intros S. unfold strend_body.
  eapply lbind_step; [apply safe_rd_byte; eauto with safe|]. intros c m1 E1 S1 Hc.
  destruct (c =? 0).
  - split; [exact S1|]. exists 0. split; [lia|]. rewrite (liftb_R _ m c m1 0 E1). apply chain_zero, st_R0, S.
  - split; [eauto with safe|]. exists 1. split; [lia|].
    rewrite R_setR_same, (liftb_R _ m c m1 0 E1). exact (read_link W1 1 m c m1 S E1).
Qed.

Lemma movblw_loop_spec m : st m0 m ->
  match movblw_loop m with Ok _ m' => adv 4 0 m m' | Err _ m' => st m0 m' | _ => False end.
Proof.
  (* rewritten, not converted: checking a statement about `movblw_loop m` against one about `run_loop ?body m`
     makes the kernel enter `iter_loop loop_fuel` *)
  intros S. assert (Q : movblw_loop = run_loop movblw_body) by reflexivity. rewrite Q.
  apply (run_loop_spec 4); [lia | apply movblw_body_step | exact S].
Qed.

(* one entry of the block-move list: a word read, the nested MOVBLW, another word read *)
Lemma cs3_body_step m : st m0 m -> lstep 4 m (cs3_body m).
Proof.
  intros S. unfold cs3_body. destruct (R m 2 =? 0); [now apply adv_refl|].
  eapply lbind_step; [apply safe_rd_word; eauto with safe|]. intros v m1 E1 S1 Hv.
  set (ma := setR (setR m1 1 v) 0 (add32 (R (setR m1 1 v) 0) 4)).
  assert (Sa : st m0 ma) by (unfold ma; eauto 8 with safe).
  assert (A1 : adv 4 1 m ma).
  { split; [exact Sa|]. exists 1. split; [lia|]. unfold ma. rewrite R_setR_same. rewrite R_setR_other by lia.
    rewrite (liftb_R _ m v m1 0 E1). exact (read_link W4 4 m v m1 S E1). }
  pose proof (movblw_loop_spec ma Sa) as K2.
  destruct (movblw_loop ma) as [u m2|e m2| |]; cbn [lbind lstep]; try exact K2.
  eapply lbind_step; [apply safe_rd_word; [apply K2 | eapply W32_nonneg, R_range, K2]|]. intros v2 m3 E3 S3 Hv2.
  assert (A3 : adv 4 1 m2 (setR (setR m3 2 v2) 0 (add32 (R (setR m3 2 v2) 0) 4))).
  { split; [eauto 8 with safe|]. exists 1. split; [lia|]. rewrite R_setR_same. rewrite R_setR_other by lia.
    rewrite (liftb_R _ m2 v2 m3 0 E3). exact (read_link W4 4 m2 v2 m3 (proj1 K2) E3). }
  destruct (adv_trans 4 1 1 _ _ _ (adv_trans 4 1 0 _ _ _ A1 K2) A3) as (S' & n & Hn & C).
  split; [exact S'|]. exists n. split; [lia | exact C].
Qed.

Lemma safe_of_spec d (r : res mach unit) m :
  match r with Ok _ m' => adv d 0 m m' | Err _ m' => st m0 m' | _ => False end -> safe m0 (fun _ => True) r.
Proof. destruct r; cbn; auto. intros [? _]. auto. Qed.

Lemma safe_movblw_loop m : st m0 m -> safe m0 (fun _ => True) (movblw_loop m).
Proof. intros S. exact (safe_of_spec 4 _ m (movblw_loop_spec m S)). Qed.
Lemma safe_strend_loop m : st m0 m -> safe m0 (fun _ => True) (strend_loop m).
Proof. intros S. apply (safe_of_spec 1 _ m). apply (run_loop_spec 1); [lia | apply strend_body_step | exact S]. Qed.
Lemma safe_cs3_loop m : st m0 m -> safe m0 (fun _ => True) (cs3_loop m).
Proof. intros S. apply (safe_of_spec 4 _ m). apply (run_loop_spec 4); [lia | apply cs3_body_step | exact S]. Qed.

#[local] Hint Resolve safe_movblw_loop safe_strend_loop : safe.

#[local] Hint Resolve safe_stack_push safe_stack_pop safe_irq_push safe_irq_pop safe_add_op safe_sub_op safe_alu_std
  safe_div_arm safe_mod_arm safe_cs3_loop : safe.

Lemma safe_cs1 p m : st m0 m -> W32 p -> safe m0 (fun _ => True) (context_switch_1 p m).
Proof. intros S Hp. unfold context_switch_1. cbv zeta. safe_walk. Qed.

Lemma safe_cs2 p m : st m0 m -> W32 p -> safe m0 (fun _ => True) (context_switch_2 p m).
Proof. intros S Hp. unfold context_switch_2. cbv zeta. safe_walk. Qed.

Lemma safe_cs3 m : st m0 m -> safe m0 (fun _ => True) (context_switch_3 m).
Proof. intros S. unfold context_switch_3. cbv zeta. safe_walk. Qed.

Lemma safe_cond_return taken m : st m0 m -> safe m0 (fun _ => True) (cond_return ir taken m).
Proof. intros S. unfold cond_return. safe_walk. Qed.

#[local] Hint Resolve safe_cs1 safe_cs2 safe_cs3 safe_cond_return : safe.

Lemma safe_on_interrupt v m : st m0 m -> 0 <= v -> safe m0 (fun _ => True) (on_interrupt v m).
Proof. intros S Hv. unfold on_interrupt. cbv zeta. safe_walk. Qed.

(* every dispatch arm.  The conditional branches and returns sit in the chain of opcode tests, behind the first eight,
   as one table lookup (Gen/GenDispatch.v); the arms behind it are walked once, as the fall-through of that lookup.
   (`unfold exec` unrolls the nine-turn register loops of SAVE and RESTORE, so they are walked like any other code.) *)
Lemma exec_safe m : st m0 m -> safe m0 (fun _ => True) (exec ir m).
Proof.
  intros S. unfold exec. cbv zeta. unfold illegalM, zerodiv, fail.
  do 8 (apply safe_if; [safe_walk|]).
  match goal with |- safe _ _ (match ?x with Some _ => _ | None => ?r end) => set (rest := r) end.
  assert (Hrest : safe m0 (fun _ : Z => True) rest) by (subst rest; safe_walk).
  clearbody rest.
  destruct (g_branch_pred (iopcode ir) (flag F_N m) (flag F_Z m) (flag F_V m) (flag F_C m)) as [taken|]; [|exact Hrest].
  destruct (find (fun p : Z * brkind => fst p =? iopcode ir) g_branch_arms) as [[o k]|]; [|exact Hrest].
  destruct k; safe_walk.
Qed.

End Exec.
