(* Basic range and wrap facts about Bits.v; and the one place where the post hook of `zify` is set. *)
From Coq Require Import ZArith Lia Bool ZifyBool.
From Dmd Require Import Model.Bits.
Open Scope Z_scope.

(* ZifyBool makes `zify` finish by splitting on every boolean of the context (`elim_bool_cstr`).  No proof of this
   development needs that, and with a few dozen comparisons in sight it turns a `lia` of a tenth of a second into
   minutes.  A hook holds wherever the file that sets it is required, so this line serves every file built on this one. *)
Ltac Zify.zify_post_hook ::= idtac.

Lemma w8_range x : 0 <= w8 x < 256.
Proof. now apply Z.mod_pos_bound. Qed.
Lemma w16_range x : 0 <= w16 x < 65536.
Proof. now apply Z.mod_pos_bound. Qed.
Lemma w32_range x : 0 <= w32 x < 4294967296.
Proof. now apply Z.mod_pos_bound. Qed.
Lemma w8_id x : 0 <= x < 256 -> w8 x = x.
Proof. unfold w8; intros; rewrite Z.mod_small; lia. Qed.
Lemma w16_id x : 0 <= x < 65536 -> w16 x = x.
Proof. unfold w16; intros; rewrite Z.mod_small; lia. Qed.
Lemma w32_id x : 0 <= x < 4294967296 -> w32 x = x.
Proof. unfold w32; intros; rewrite Z.mod_small; lia. Qed.

Lemma testbit_small x n : 0 <= x < 4294967296 -> 32 <= n -> Z.testbit x n = false.
Proof.
  intros Hx Hn. destruct (Z.eq_dec x 0) as [->|N0]; [apply Z.bits_0|].
  apply Z.bits_above_log2; [lia|]. apply Z.lt_le_trans with 32; [|lia]. apply Z.log2_lt_pow2; lia.
Qed.

Lemma sext8_range x : 0 <= sext8 x < 4294967296.
Proof. unfold sext8; pose proof (w8_range x); destruct (w8 x <? 128) eqn:E; lia. Qed.
Lemma sext16_range x : 0 <= sext16 x < 4294967296.
Proof. unfold sext16; pose proof (w16_range x); destruct (w16 x <? 32768) eqn:E; lia. Qed.

Lemma sext8_spec x : sext8 x = w32 (s8 x).
Proof.
  unfold sext8, s8, w32; pose proof (w8_range x).
  destruct (w8 x <? 128) eqn:E.
  - rewrite Z.mod_small; lia.
  - replace (w8 x - 256) with (w8 x + 4294967040 + (-1) * 4294967296) by lia.
    rewrite Z.mod_add by lia. rewrite Z.mod_small; lia.
Qed.
Lemma sext16_spec x : sext16 x = w32 (s16 x).
Proof.
  unfold sext16, s16, w32; pose proof (w16_range x).
  destruct (w16 x <? 32768) eqn:E.
  - rewrite Z.mod_small; lia.
  - replace (w16 x - 65536) with (w16 x + 4294901760 + (-1) * 4294967296) by lia.
    rewrite Z.mod_add by lia. rewrite Z.mod_small; lia.
Qed.

Lemma s8_range x : -128 <= s8 x < 128.
Proof. unfold s8; pose proof (w8_range x); destruct (w8 x <? 128) eqn:E; lia. Qed.
Lemma s16_range x : -32768 <= s16 x < 32768.
Proof. unfold s16; pose proof (w16_range x); destruct (w16 x <? 32768) eqn:E; lia. Qed.
Lemma s32_range x : 0 <= x < 4294967296 -> -2147483648 <= s32 x < 2147483648.
Proof. unfold s32; intros; destruct (x <? 2147483648) eqn:E; lia. Qed.

Lemma add_offset_spec v off : add_offset v off = (v + off) mod 2 ^ 32.
Proof. reflexivity. Qed.
Lemma add_offset_signed v off : add_offset v off = w32 (v + s32 off).
Proof.
  unfold add_offset, s32, w32. destruct (off <? 2147483648) eqn:E; [reflexivity|].
  replace (v + (off - 4294967296)) with (v + off + (-1) * 4294967296) by lia.
  now rewrite Z.mod_add by lia.
Qed.

Lemma add32_small a k : 0 <= a + k < 4294967296 -> add32 a k = a + k.
Proof. intros H. unfold add32, w32. now apply Z.mod_small. Qed.
Lemma sub32_small a k : 0 <= a - k < 4294967296 -> sub32 a k = a - k.
Proof. intros H. unfold sub32, w32. now apply Z.mod_small. Qed.
Lemma usub_small a k : 0 <= a - k < 18446744073709551616 -> usub a k = a - k.
Proof. intros H. unfold usub, w64. now apply Z.mod_small. Qed.
