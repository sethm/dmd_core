(* Stack and procedure linkage (C06): the effect of each instruction as an explicit final state, and what
   those states hold (the inverse pairs are derived from these in Props/C06.v). *)
From Coq Require Import ZArith Lia Bool List ZifyBool.
From Dmd Require Import Model.Bits Model.Types Model.Mem Model.Bus Model.Decode Model.Cpu.
From Dmd Require Import Proofs.BitsLemmas Proofs.BusProofs Proofs.RegKit Proofs.MachKit Proofs.Arms.
Open Scope Z_scope.

Ltac splits := repeat match goal with |- _ /\ _ => split end.

(* the flag updates common to PUSHW / POPW / PUSHAW: N, Z from the value, C and V cleared *)
Definition nz_clear_cv (v : Z) (o : operand) (m : mach) : mach :=
  set_v false (set_c false (set_nz_flags v o m)).

Lemma R_nz_clear_cv v o m i : 0 <= i <= 15 -> i <> 11 -> R (nz_clear_cv v o m) i = R m i.
Proof.
  intros Hi N. unfold nz_clear_cv, set_v, set_c, set_nz_flags, set_z, set_n.
  destruct (otype o); rewrite ?R_setf_other by lia; reflexivity.
Qed.
Lemma mbus_nz_clear_cv v o m : mbus (nz_clear_cv v o m) = mbus m.
Proof. unfold nz_clear_cv, set_nz_flags, set_z, set_n. destruct (otype o); reflexivity. Qed.
Lemma ldw_nz_clear_cv v o m a : ldw (nz_clear_cv v o m) a = ldw m a.
Proof. apply ldw_same_bus, mbus_nz_clear_cv. Qed.
Lemma ramb_nz_clear_cv v o m a : ramb (nz_clear_cv v o m) a = ramb m a.
Proof. unfold ramb. now rewrite mbus_nz_clear_cv. Qed.

Lemma stack_push_ram v m : bus_wf (mbus m) -> in_ram_w (R m R_SP) ->
  stack_push v m = Ok tt (setR (stw m (R m R_SP) v) R_SP (add32 (R m R_SP) 4)).
Proof.
  intros W H. unfold stack_push. rewrite wr_word_ram by assumption. reflexivity.
Qed.
Lemma stack_pop_ram m : bus_wf (mbus m) -> in_ram_w (sub32 (R m R_SP) 4) ->
  stack_pop m = Ok (ldw m (sub32 (R m R_SP) 4)) (setR m R_SP (sub32 (R m R_SP) 4)).
Proof.
  intros W H. unfold stack_pop. rewrite rd_word_ram by assumption. reflexivity.
Qed.

Definition pushed (m : mach) (v : Z) : mach := setR (stw m (R m R_SP) v) R_SP (add32 (R m R_SP) 4).

Lemma R_pushed_sp m v : R (pushed m v) R_SP = add32 (R m R_SP) 4.
Proof. unfold pushed. apply R_setR_same. Qed.
Lemma R_pushed_sp_ram m v : in_ram_w (R m R_SP) -> R (pushed m v) R_SP = R m R_SP + 4.
Proof. intros H. rewrite R_pushed_sp. apply add32_small. ramw. Qed.
Lemma R_pushed_other m v i : 0 <= i <= 15 -> i <> 12 -> R (pushed m v) i = R m i.
Proof. intros. unfold pushed. rewrite R_setR_other by (unfold R_SP; lia). reflexivity. Qed.
Lemma ldw_pushed_top m v : RAMB <= R m R_SP -> ldw (pushed m v) (R m R_SP) = w32 v.
Proof. intros. unfold pushed. rewrite ldw_setR. now apply ldw_stw_same. Qed.
Lemma ramb_pushed_other m v a : RAMB <= R m R_SP -> RAMB <= a -> (a < R m R_SP \/ R m R_SP + 4 <= a) ->
  ramb (pushed m v) a = ramb m a.
Proof. intros. unfold pushed. rewrite ramb_setR. now apply ramb_stw_other. Qed.
Lemma wf_pushed m v : bus_wf (mbus m) -> bus_wf (mbus (pushed m v)).
Proof. intros W. unfold pushed. cbn [mbus setR with_regs]. now apply wf_stw. Qed.

Lemma pushw_effect ir m v :
  iopcode ir = 160 -> bus_wf (mbus m) -> in_ram_w (R m R_SP) -> read_op ir 0 m = Ok v m ->
  exec ir m = Ok (ilen ir) (nz_clear_cv v (op0 ir) (pushed m v)).
Proof.
  intros Ho W Hs Hr. rewrite exec_pushw by exact Ho. rewrite Hr. cbn [bind].
  rewrite stack_push_ram by assumption. reflexivity.
Qed.

Lemma popw_effect_reg ir m r :
  iopcode ir = 32 -> bus_wf (mbus m) -> in_ram_w (R m R_SP - 4) -> 4 <= R m R_SP < 4294967296 ->
  omode (op0 ir) = MRegister -> oreg (op0 ir) = Some r ->
  exec ir m = Ok (ilen ir) (nz_clear_cv (ldw m (R m R_SP - 4)) (op0 ir)
                              (setR (setR m r (ldw m (R m R_SP - 4))) R_SP
                                    (sub32 (R (setR m r (ldw m (R m R_SP - 4))) R_SP) 4))).
Proof.
  intros Ho W Hs Hsp Hm Hr. rewrite exec_popw by exact Ho.
  rewrite usub_small by lia. rewrite rd_word_ram by assumption. cbn [bind].
  unfold write_op. change (get_op ir 0) with (op0 ir). rewrite Hm, Hr. cbn [bind]. reflexivity.
Qed.

Lemma rsb_effect ir m :
  iopcode ir = 120 -> bus_wf (mbus m) -> in_ram_w (sub32 (R m R_SP) 4) ->
  exec ir m = Ok 0 (setR (setR m R_SP (sub32 (R m R_SP) 4)) R_PC (ldw m (sub32 (R m R_SP) 4))).
Proof.
  intros Ho W Hs. rewrite exec_rsb by exact Ho. unfold cond_return.
  rewrite stack_pop_ram by assumption. reflexivity.
Qed.

Definition called (m : mach) (a b ret : Z) : mach :=
  setR (setR (setR (stw (stw m (add32 (R m R_SP) 4) (R m R_AP)) (R m R_SP) ret) R_SP (add32 (R m R_SP) 8)) R_PC b) R_AP a.

Lemma call_effect ir m a b :
  iopcode ir = 44 -> bus_wf (mbus m) -> in_ram_w (R m R_SP) -> in_ram_w (R m R_SP + 4) ->
  effective_address ir 0 m = Ok a m -> effective_address ir 1 m = Ok b m ->
  exec ir m = Ok 0 (called m a b (w32 (R m R_PC + ilen ir))).
Proof.
  intros Ho W Hs Hs4 Ha Hb. rewrite exec_call by exact Ho. rewrite Ha. cbn [bind]. rewrite Hb. cbn [bind].
  cbv zeta. unfold called. rewrite (add32_small (R m R_SP) 4) by ramw.
  rewrite wr_word_ram by assumption. cbn [bind].
  rewrite R_stw. rewrite wr_word_ram; [| now apply wf_stw | exact Hs]. reflexivity.
Qed.

Lemma called_spec m a b ret :
  bus_wf (mbus m) -> in_ram_w (R m R_SP) -> in_ram_w (R m R_SP + 4) ->
  let m1 := called m a b ret in
  bus_wf (mbus m1) /\ R m1 R_SP = R m R_SP + 8 /\ R m1 R_AP = a
  /\ ldw m1 (R m R_SP) = w32 ret /\ ldw m1 (R m R_SP + 4) = w32 (R m R_AP)
  /\ (forall i, 0 <= i <= 14 -> i <> 10 -> i <> 12 -> R m1 i = R m i)
  /\ (forall x, RAMB <= x -> (x < R m R_SP \/ R m R_SP + 8 <= x) -> ramb m1 x = ramb m x).
Proof.
  intros W Hs Hs4 m1. pose proof Hs as [Hs1 [Hs2 Hs3]]. pose proof Hs4 as [_ [Hq _]].
  unfold m1, called. rewrite (add32_small (R m R_SP) 4), (add32_small (R m R_SP) 8) by ramw.
  unfold R_AP, R_PC, R_SP in *. splits.
  - cbn [mbus setR with_regs]. now apply wf_stw, wf_stw.
  - reflexivity.
  - reflexivity.
  - rewrite !ldw_setR. apply ldw_stw_same. lia.
  - rewrite !ldw_setR. rewrite ldw_stw_other by lia. apply ldw_stw_same. lia.
  - intros i Hi N10 N12. rewrite !R_setR_other by lia. reflexivity.
  - intros x Hx Hd. rewrite !ramb_setR. rewrite !ramb_stw_other by lia. reflexivity.
Qed.

Lemma ret_effect ir m :
  iopcode ir = 8 -> bus_wf (mbus m) -> in_ram_w (R m R_SP - 8) -> in_ram_w (R m R_SP - 4) ->
  exec ir m = Ok 0 (setR (setR (setR m R_AP (ldw m (R m R_SP - 4))) R_PC (ldw m (R m R_SP - 8))) R_SP (R m R_AP)).
Proof.
  intros Ho W H8 H4. rewrite exec_ret by exact Ho.
  rewrite sub32_small by ramw. rewrite rd_word_ram by assumption. cbn [bind].
  rewrite sub32_small by ramw. rewrite rd_word_ram by assumption. reflexivity.
Qed.

Fixpoint save_st (n : nat) (r off : Z) (m : mach) : mach :=
  match n with
  | O => m
  | S n' => if r <? R_FP then save_st n' (r + 1) (off + 4) (stw m (R m R_SP + off) (R m r)) else m
  end.

Lemma save_loop_spec n : forall r off m a, a = R m R_SP + off ->
  bus_wf (mbus m) -> 0 <= r <= 9 -> 9 - r <= Z.of_nat n -> RAMB <= a -> a + 4 * (9 - r) <= RAME -> a mod 4 = 0 ->
  save_loop n r off m = Ok tt (save_st n r off m)
  /\ bus_wf (mbus (save_st n r off m)) /\ mregs (save_st n r off m) = mregs m
  /\ (forall k, r <= k <= 8 -> ldw (save_st n r off m) (a + 4 * (k - r)) = w32 (R m k))
  /\ (forall x, RAMB <= x -> x < a \/ a + 4 * (9 - r) <= x -> ramb (save_st n r off m) x = ramb m x).
Proof.
  induction n as [|n IH]; intros r off m a Ea W Hr Hn Hc He Ha; cbn [save_loop save_st].
  - split; [reflexivity|]. split; [exact W|]. split; [reflexivity|]. split; intros; lia.
  - unfold R_FP. destruct (r <? 9) eqn:E;
      [|split; [reflexivity|]; split; [exact W|]; split; [reflexivity|]; split; intros; lia].
    rewrite <- Ea. rewrite wr_word_ram by (auto; unfold in_ram_w; lia). cbn [bind].
    destruct (IH (r + 1) (off + 4) (stw m a (R m r)) (a + 4) ltac:(rewrite R_stw; lia) (wf_stw _ _ _ W))
      as (E' & W' & Rg & K & O); try lia; [Z.div_mod_to_equations; lia|].
    split; [exact E'|]. split; [exact W'|]. split; [exact Rg|]. split.
    + intros k Hk. destruct (Z.eq_dec k r) as [->|N].
      * replace (a + 4 * (r - r)) with a by lia. rewrite (ldw_ext (stw m a (R m r))) by (intros; apply O; lia).
        apply ldw_stw_same. lia.
      * replace (a + 4 * (k - r)) with (a + 4 + 4 * (k - (r + 1))) by lia. apply K. lia.
    + intros x Hx Hd. rewrite O by lia. apply ramb_stw_other; lia.
Qed.

Lemma restore_loop_spec n : forall r c m,
  bus_wf (mbus m) -> 0 <= r <= 9 -> 9 - r <= Z.of_nat n -> RAMB <= c -> c + 4 * (9 - r) <= RAME -> c mod 4 = 0 ->
  exists m', restore_loop n r c m = Ok tt m' /\ mbus m' = mbus m
    /\ (forall k, r <= k <= 8 -> R m' k = ldw m (c + 4 * (k - r)))
    /\ (forall i, 0 <= i <= 15 -> i < r \/ 8 < i -> R m' i = R m i).
Proof.
  induction n as [|n IH]; intros r c m W Hr Hn Hc He Ha; cbn [restore_loop].
  - exists m. repeat split; intros; lia.
  - unfold R_FP. destruct (r <? 9) eqn:E; [|exists m; repeat split; intros; lia].
    rewrite rd_word_ram by (auto; unfold in_ram_w; lia). cbn [bind].
    rewrite add32_small by (unfold RAMB, RAME in *; lia).
    destruct (IH (r + 1) (c + 4) (setR m r (ldw m c)) W) as (m' & E' & B & K & O); try lia;
      [Z.div_mod_to_equations; lia|].
    exists m'. split; [exact E'|]. split; [exact B|]. split.
    + intros k Hk. destruct (Z.eq_dec k r) as [->|N].
      * rewrite O by lia. rewrite R_setR_same. f_equal. lia.
      * rewrite K by lia. rewrite ldw_setR. f_equal. lia.
    + intros i Hi Hd. rewrite O by lia. apply R_setR_other; lia.
Qed.

Definition saved_mem (m : mach) (r : Z) : mach :=
  let s := R m R_SP in
  let m0 := stw m s (R m R_FP) in
  let st k mm := if r <=? k then stw mm (s + (4 + 4 * (k - r))) (R m k) else mm in
  st 8 (st 7 (st 6 (st 5 (st 4 (st 3 m0))))).

(* for each save range the six guarded stores are the stores of the loop *)
Lemma saved_mem_loop m r : 3 <= r <= 9 -> saved_mem m r = save_st 9 r 4 (stw m (R m R_SP) (R m R_FP)).
Proof.
  intros H. assert (E : r = 3 \/ r = 4 \/ r = 5 \/ r = 6 \/ r = 7 \/ r = 8 \/ r = 9) by lia.
  repeat (destruct E as [->|E]; [reflexivity|]). subst r. reflexivity.
Qed.

Lemma saved_mem_spec m r :
  3 <= r <= 9 -> bus_wf (mbus m) -> in_ram_w (R m R_SP) -> R m R_SP + 28 <= RAME ->
  save_loop 9 r 4 (stw m (R m R_SP) (R m R_FP)) = Ok tt (saved_mem m r)
  /\ bus_wf (mbus (saved_mem m r)) /\ mregs (saved_mem m r) = mregs m
  /\ ldw (saved_mem m r) (R m R_SP) = w32 (R m R_FP)
  /\ (forall k, r <= k <= 8 -> ldw (saved_mem m r) (R m R_SP + 4 + 4 * (k - r)) = w32 (R m k))
  /\ (forall a, RAMB <= a -> (a < R m R_SP \/ R m R_SP + 28 <= a) -> ramb (saved_mem m r) a = ramb m a).
Proof.
  intros Hr W (Hs1 & Hs2 & Hs3) Hend. rewrite saved_mem_loop by exact Hr.
  destruct (save_loop_spec 9 r 4 (stw m (R m R_SP) (R m R_FP)) (R m R_SP + 4) eq_refl (wf_stw _ _ _ W))
    as (E & W' & Rg & K & O); try lia; [Z.div_mod_to_equations; lia|].
  split; [exact E|]. split; [exact W'|]. split; [exact Rg|]. split; [|split].
  - rewrite (ldw_ext (stw m (R m R_SP) (R m R_FP))) by (intros; apply O; lia). apply ldw_stw_same. lia.
  - intros k Hk. rewrite K by lia. reflexivity.
  - intros a Ha Hd. rewrite O by lia. apply ramb_stw_other; lia.
Qed.

Lemma save_effect ir m r :
  iopcode ir = 16 -> oreg (op0 ir) = Some r -> 3 <= r <= 9 ->
  bus_wf (mbus m) -> in_ram_w (R m R_SP) -> R m R_SP + 28 <= RAME ->
  exec ir m = Ok (ilen ir) (setR (setR (saved_mem m r) R_SP (R m R_SP + 28)) R_FP (R m R_SP + 28)).
Proof.
  intros Ho Hr1 Hr W Hs Hend. destruct (saved_mem_spec m r Hr W Hs Hend) as (E & _ & Rg & _).
  rewrite exec_save by exact Ho. rewrite wr_word_ram by assumption. cbn [bind]. rewrite Hr1, E. cbn [bind]. cbv zeta.
  rewrite R_setR_same, (R_of_regs m _ R_SP Rg). rewrite add32_small by ramw. reflexivity.
Qed.

Lemma restore_effect ir m r :
  iopcode ir = 24 -> oreg (op0 ir) = Some r -> 3 <= r <= 9 -> bus_wf (mbus m) ->
  RAMB + 28 <= R m R_FP -> R m R_FP <= RAME -> R m R_FP mod 4 = 0 ->
  exists m2, exec ir m = Ok (ilen ir) m2 /\ mbus m2 = mbus m
    /\ R m2 R_SP = R m R_FP - 28 /\ R m2 R_FP = ldw m (R m R_FP - 28)
    /\ (forall k, r <= k <= 8 -> R m2 k = ldw m (R m R_FP - 24 + 4 * (k - r)))
    /\ (forall i, 0 <= i <= 15 -> i <> 9 -> i <> 12 -> (i < r \/ 8 < i) -> R m2 i = R m i).
Proof.
  intros Ho Hr1 Hr W H1 H2 H3. rewrite exec_restore by exact Ho. rewrite Hr1.
  rewrite sub32_small by (unfold RAMB, RAME in *; lia).
  rewrite rd_word_ram by (auto; unfold in_ram_w; Z.div_mod_to_equations; lia). cbn [bind].
  rewrite sub32_small by (unfold RAMB, RAME in *; lia).
  destruct (restore_loop_spec 9 r (R m R_FP - 24) m W) as (m' & E & B & K & O); try lia;
    [Z.div_mod_to_equations; lia|].
  rewrite E. cbn [bind]. eexists. split; [reflexivity|]. cbn [mbus setR with_regs]. unfold R_FP, R_SP in *.
  split; [exact B|]. split; [reflexivity|]. split; [reflexivity|].
  split; intros; rewrite !R_setR_other by lia; auto.
Qed.

