(* The constants written into the model are the ones the translator reads from the source on this run. *)
From Coq Require Import ZArith List Bool.
From Dmd Require Import Model.Bits Model.Mem Model.Bus Model.Cpu Model.Dmd.
From Dmd Require Import Gen.GenConsts Gen.GenRom.
Open Scope Z_scope.

Lemma psw_fields_match :
  (F_ET, F_TM, F_ISC, F_I, F_R, F_PM, F_CM, F_IPL, F_C, F_V, F_Z, F_N, F_CD, F_QIE, F_CFD)
  = (g_F_ET, g_F_TM, g_F_ISC, g_F_I, g_F_R, g_F_PM, g_F_CM, g_F_IPL, g_F_C, g_F_V, g_F_Z, g_F_N, g_F_CD, g_F_QIE, g_F_CFD).
Proof. reflexivity. Qed.

Lemma reg_numbers_match :
  (R_FP, R_AP, R_PSW, R_SP, R_PCBP, R_ISP, R_PC, WE32100_VERSION)
  = (g_R_FP, g_R_AP, g_R_PSW, g_R_SP, g_R_PCBP, g_R_ISP, g_R_PC, g_WE32100_VERSION).
Proof. reflexivity. Qed.

Lemma ipl_table_match : IPL_TABLE = g_IPL_TABLE.
Proof. reflexivity. Qed.

Definition geom (m : mem) : Z * Z * bool := (mbase m, msize m, mro m).

Lemma device_geometry_match now :
  geom (rom (bus_new now)) = g_dev_rom /\ geom (vid (bus_new now)) = g_dev_vid
  /\ geom (bbram (bus_new now)) = g_dev_bbram /\ geom (ram (bus_new now)) = g_dev_ram
  /\ NVRAM_SIZE = g_NVRAM_SIZE /\ VIDEO_LEN = g_video_len /\ g_video_mul = 4
  /\ g_video_guard = (7340032, 8388608, 7340032).
Proof. repeat split. Qed.

Lemma rom_lengths_match :
  g_LO_ROM_V1_LEN = 32768 /\ g_HI_ROM_V1_LEN = 32768 /\ g_LO_ROM_V2_LEN = 65536 /\ g_HI_ROM_V2_LEN = 65536
  /\ g_reset_shape_ok = true.
Proof. repeat split. Qed.

Lemma return_codes_match : (SUCCESS, ERROR, BUSY) = (g_SUCCESS, g_ERROR, g_BUSY).
Proof. reflexivity. Qed.
