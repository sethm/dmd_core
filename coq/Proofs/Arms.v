(* `exec` opcode by opcode: the arm of the dispatch each opcode selects, as an equation (opcode numbers are the
   architected ones), and the dispatch read as a list of tests. *)
From Coq Require Import ZArith Bool List.
From Dmd Require Import Model.Bits Model.Types Model.Cpu.
Open Scope Z_scope.

(* With the instruction register taken apart the opcode tests of exec are closed, so the equation holds by
   evaluation; rewriting the opcode inside the unfolded exec would carry the whole dispatch as a motive. *)
Ltac arm_eq ir :=
  destruct ir; cbn [iopcode]; intros H; repeat (destruct H as [H|H]; [subst; reflexivity|]); subst; reflexivity.

(* For a closed opcode: replace exec i m by the arm it selects.  Head normalisation evaluates the opcode tests
   and stops at the monadic bind or at one of the arm helpers, which are kept opaque for the duration; one change,
   so that the kernel checks a single conversion from exec i m to the arm. *)
Ltac exec_whd :=
  with_strategy opaque [bind alu_std div_arm mod_arm cond_return]
    (lazymatch goal with |- context C [exec ?i ?m] =>
       let t := eval hnf in (exec i m) in
       let t := eval cbv beta zeta in t in
       let g := context C [t] in change g end).

(* The two-operand form (first list) writes operand 1, the three-operand form operand 2. *)
Lemma exec_and ir m :
  (iopcode ir = 184 \/ iopcode ir = 186 \/ iopcode ir = 187 -> exec ir m = alu_std ir Z.land 1 m)
  /\ (iopcode ir = 248 \/ iopcode ir = 250 \/ iopcode ir = 251 -> exec ir m = alu_std ir Z.land 2 m).
Proof. split; arm_eq ir. Qed.
Lemma exec_or ir m :
  (iopcode ir = 176 \/ iopcode ir = 178 \/ iopcode ir = 179 -> exec ir m = alu_std ir Z.lor 1 m)
  /\ (iopcode ir = 240 \/ iopcode ir = 242 \/ iopcode ir = 243 -> exec ir m = alu_std ir Z.lor 2 m).
Proof. split; arm_eq ir. Qed.
Lemma exec_xor ir m :
  (iopcode ir = 180 \/ iopcode ir = 182 \/ iopcode ir = 183 -> exec ir m = alu_std ir Z.lxor 1 m)
  /\ (iopcode ir = 244 \/ iopcode ir = 246 \/ iopcode ir = 247 -> exec ir m = alu_std ir Z.lxor 2 m).
Proof. split; arm_eq ir. Qed.
Lemma exec_mul ir m :
  (iopcode ir = 168 \/ iopcode ir = 170 \/ iopcode ir = 171 -> exec ir m = alu_std ir (fun a b => w32 (a * b)) 1 m)
  /\ (iopcode ir = 232 \/ iopcode ir = 234 \/ iopcode ir = 235 -> exec ir m = alu_std ir (fun a b => w32 (a * b)) 2 m).
Proof. split; arm_eq ir. Qed.
Lemma exec_alsw3 ir m : iopcode ir = 192 -> exec ir m = alu_std ir (fun a b => w32 (Z.shiftl b (Z.land a 31))) 2 m.
Proof. arm_eq ir. Qed.

Definition add_arm (ir : instr) (d : Z) : M Z := fun m =>
  bind (read_op ir 0 m) (fun a m => bind (read_op ir 1 m) (fun b m =>
  bind (add_op ir a b d m) (fun _ m => Ok (ilen ir) m))).
Definition sub_arm (ir : instr) (d : Z) : M Z := fun m =>
  bind (read_op ir 1 m) (fun a m => bind (read_op ir 0 m) (fun b m =>
  bind (sub_op ir a b d m) (fun _ m => Ok (ilen ir) m))).
Lemma exec_add ir m :
  (iopcode ir = 156 \/ iopcode ir = 158 \/ iopcode ir = 159 -> exec ir m = add_arm ir 1 m)
  /\ (iopcode ir = 220 \/ iopcode ir = 222 \/ iopcode ir = 223 -> exec ir m = add_arm ir 2 m).
Proof. split; arm_eq ir. Qed.
Lemma exec_sub ir m :
  (iopcode ir = 188 \/ iopcode ir = 190 \/ iopcode ir = 191 -> exec ir m = sub_arm ir 1 m)
  /\ (iopcode ir = 252 \/ iopcode ir = 254 \/ iopcode ir = 255 -> exec ir m = sub_arm ir 2 m).
Proof. split; arm_eq ir. Qed.
Lemma exec_inc ir m : iopcode ir = 144 \/ iopcode ir = 146 \/ iopcode ir = 147 ->
  exec ir m = bind (read_op ir 0 m) (fun a m => bind (add_op ir a 1 0 m) (fun _ m => Ok (ilen ir) m)).
Proof. arm_eq ir. Qed.
Lemma exec_dec ir m : iopcode ir = 148 \/ iopcode ir = 150 \/ iopcode ir = 151 ->
  exec ir m = bind (read_op ir 0 m) (fun a m => bind (sub_op ir a 1 0 m) (fun _ m => Ok (ilen ir) m)).
Proof. arm_eq ir. Qed.

Lemma exec_divw ir m :
  (iopcode ir = 172 -> exec ir m = div_arm ir 1 4294967295 2147483648 m)
  /\ (iopcode ir = 236 -> exec ir m = div_arm ir 2 4294967295 2147483648 m).
Proof. split; arm_eq ir. Qed.
Lemma exec_divh ir m :
  (iopcode ir = 174 -> exec ir m = div_arm ir 1 65535 32768 m)
  /\ (iopcode ir = 238 -> exec ir m = div_arm ir 2 65535 32768 m).
Proof. split; arm_eq ir. Qed.
Lemma exec_divb ir m :
  (iopcode ir = 175 -> exec ir m = div_arm ir 1 255 128 m)
  /\ (iopcode ir = 239 -> exec ir m = div_arm ir 2 255 128 m).
Proof. split; arm_eq ir. Qed.
Lemma exec_mod ir m :
  (iopcode ir = 164 \/ iopcode ir = 166 \/ iopcode ir = 167 -> exec ir m = mod_arm ir 1 m)
  /\ (iopcode ir = 228 \/ iopcode ir = 230 \/ iopcode ir = 231 -> exec ir m = mod_arm ir 2 m).
Proof. split; arm_eq ir. Qed.

Lemma exec_bit ir m : iopcode ir = 56 \/ iopcode ir = 58 \/ iopcode ir = 59 ->
  exec ir m = bind (read_op ir 0 m) (fun a m => bind (read_op ir 1 m) (fun b m =>
    Ok (ilen ir) (set_v false (set_c false (set_nz_flags (Z.land a b) (op1 ir) m))))).
Proof. arm_eq ir. Qed.
Lemma exec_tstw ir m : iopcode ir = 40 ->
  exec ir m = bind (read_op ir 0 m) (fun a m =>
    Ok (ilen ir) (set_v false (set_c false (set_z (a =? 0) (set_n (s32 a <? 0) m))))).
Proof. arm_eq ir. Qed.
Lemma exec_cmpw ir m : iopcode ir = 60 ->
  exec ir m = bind (read_op ir 0 m) (fun a m => bind (read_op ir 1 m) (fun b m =>
    Ok (ilen ir) (set_v false (set_c (b <? a) (set_n (s32 b <? s32 a) (set_z (b =? a) m)))))).
Proof. arm_eq ir. Qed.
Lemma exec_cmph ir m : iopcode ir = 62 ->
  exec ir m = bind (read_op ir 0 m) (fun a m => bind (read_op ir 1 m) (fun b m =>
    Ok (ilen ir) (set_v false (set_c (w16 b <? w16 a) (set_n (s16 b <? s16 a) (set_z (w16 b =? w16 a) m)))))).
Proof. arm_eq ir. Qed.
Lemma exec_cmpb ir m : iopcode ir = 63 ->
  exec ir m = bind (read_op ir 0 m) (fun a m => bind (read_op ir 1 m) (fun b m =>
    Ok (ilen ir) (set_v false (set_c (w8 b <? w8 a) (set_n (s8 b <? s8 a) (set_z (w8 b =? w8 a) m)))))).
Proof. arm_eq ir. Qed.

Lemma exec_clr ir m : iopcode ir = 128 \/ iopcode ir = 130 \/ iopcode ir = 131 ->
  exec ir m = bind (write_op ir 0 0 m) (fun _ m =>
    Ok (ilen ir) (set_v false (set_c false (set_z true (set_n false m))))).
Proof. arm_eq ir. Qed.

Definition unary_arm (ir : instr) (f : Z -> Z) : M Z := fun m =>
  bind (read_op ir 0 m) (fun a m => bind (write_op ir 1 (f a) m) (fun _ m =>
    Ok (ilen ir) (set_v_flag_op (f a) (op1 ir) (set_c false (set_nz_flags (f a) (op1 ir) m))))).
Lemma exec_movx ir m : iopcode ir = 135 \/ iopcode ir = 134 \/ iopcode ir = 132 -> exec ir m = unary_arm ir (fun a => a) m.
Proof. arm_eq ir. Qed.
Lemma exec_mcom ir m : iopcode ir = 136 \/ iopcode ir = 138 \/ iopcode ir = 139 -> exec ir m = unary_arm ir not32 m.
Proof. arm_eq ir. Qed.
Lemma exec_mneg ir m : iopcode ir = 140 \/ iopcode ir = 142 \/ iopcode ir = 143 ->
  exec ir m = unary_arm ir (fun a => w32 (not32 a + 1)) m.
Proof. arm_eq ir. Qed.

Lemma exec_llsw3 ir m : iopcode ir = 208 ->
  exec ir m = bind (read_op ir 1 m) (fun a m => bind (read_op ir 0 m) (fun b m =>
    let result := w32 (Z.shiftl a (Z.land b 31)) in
    bind (write_op ir 2 result m) (fun _ m =>
    Ok (ilen ir) (set_v_flag_op result (op2 ir) (set_c false (set_nz_flags result (op2 ir) m)))))).
Proof. arm_eq ir. Qed.
Lemma exec_lrsw3 ir m : iopcode ir = 212 ->
  exec ir m = bind (read_op ir 1 m) (fun a m => bind (read_op ir 0 m) (fun b m =>
    let result := Z.shiftr a (Z.land b 31) in
    bind (write_op ir 2 result m) (fun _ m =>
    Ok (ilen ir) (set_v_flag_op result (op2 ir) (set_c false (set_nz_flags result (op2 ir) m)))))).
Proof. arm_eq ir. Qed.
Lemma exec_rotw ir m : iopcode ir = 216 ->
  exec ir m = bind (read_op ir 0 m) (fun a0 m => bind (read_op ir 1 m) (fun b m =>
    let result := rotr32 b (Z.land a0 31) in
    bind (write_op ir 2 result m) (fun _ m =>
    Ok (ilen ir) (set_v false (set_c false (set_nz_flags result (op2 ir) m)))))).
Proof. arm_eq ir. Qed.

Lemma exec_pushw ir m : iopcode ir = 160 ->
  exec ir m = bind (read_op ir 0 m) (fun v m => bind (stack_push v m) (fun _ m =>
              Ok (ilen ir) (set_v false (set_c false (set_nz_flags v (op0 ir) m))))).
Proof. arm_eq ir. Qed.

Lemma exec_popw ir m : iopcode ir = 32 ->
  exec ir m = bind (rd_word (usub (R m R_SP) 4) m) (fun v m => bind (write_op ir 0 v m) (fun _ m =>
              Ok (ilen ir) (set_v false (set_c false (set_nz_flags v (op0 ir) (setR m R_SP (sub32 (R m R_SP) 4))))))).
Proof. arm_eq ir. Qed.

Lemma exec_call ir m : iopcode ir = 44 ->
  exec ir m = bind (effective_address ir 0 m) (fun a m => bind (effective_address ir 1 m) (fun b m =>
              let rp := w32 (R m R_PC + ilen ir) in
              bind (wr_word (add32 (R m R_SP) 4) (R m R_AP) m) (fun _ m =>
              bind (wr_word (R m R_SP) rp m) (fun _ m =>
              Ok 0 (setR (setR (setR m R_SP (add32 (R m R_SP) 8)) R_PC b) R_AP a))))).
Proof. arm_eq ir. Qed.

Lemma exec_ret ir m : iopcode ir = 8 ->
  exec ir m = bind (rd_word (sub32 (R m R_SP) 4) m) (fun b m1 => bind (rd_word (sub32 (R m1 R_SP) 8) m1) (fun c m2 =>
              Ok 0 (setR (setR (setR m2 R_AP b) R_PC c) R_SP (R m R_AP)))).
Proof. arm_eq ir. Qed.

Fixpoint save_loop (n : nat) (r off : Z) (m : mach) : res mach unit :=
  match n with
  | O => Ok tt m
  | S n' => if r <? R_FP then
              bind (wr_word (R m R_SP + off) (R m r) m) (fun _ m => save_loop n' (r + 1) (off + 4) m)
            else Ok tt m
  end.
Fixpoint restore_loop (n : nat) (r c : Z) (m : mach) : res mach unit :=
  match n with
  | O => Ok tt m
  | S n' => if r <? R_FP then
              bind (rd_word c m) (fun v m => restore_loop n' (r + 1) (add32 c 4) (setR m r v))
            else Ok tt m
  end.

Lemma exec_save ir m : iopcode ir = 16 ->
  exec ir m = bind (wr_word (R m R_SP) (R m R_FP) m) (fun _ m =>
              match oreg (op0 ir) with
              | None => illegalM m
              | Some r => bind (save_loop 9 r 4 m) (fun _ m =>
                          let m := setR m R_SP (add32 (R m R_SP) 28) in Ok (ilen ir) (setR m R_FP (R m R_SP)))
              end).
Proof. arm_eq ir. Qed.

Lemma exec_restore ir m : iopcode ir = 24 ->
  exec ir m = bind (rd_word (sub32 (R m R_FP) 28) m) (fun b m1 =>
              match oreg (op0 ir) with
              | None => illegalM m1
              | Some r => bind (restore_loop 9 r (sub32 (R m1 R_FP) 24) m1) (fun _ m2 =>
                          Ok (ilen ir) (setR (setR m2 R_FP b) R_SP (sub32 (R m R_FP) 28)))
              end).
Proof. arm_eq ir. Qed.

Lemma exec_rsb ir m : iopcode ir = 120 -> exec ir m = cond_return ir true m.
Proof. arm_eq ir. Qed.

(* lets a proof walk down the chain of arms on the head of the goal *)
Lemma else_branch {A} (b : bool) (x y z : A) : b = false -> y = z -> (if b then x else y) = z.
Proof. now intros -> ->. Qed.

(* The dispatch is a chain of tests with a default.  Read as a list, each arm occurs once in a proof that every
   test of some prefix fails, whereas walking down the nested conditional carries the rest of the chain at every step. *)
Fixpoint ifs {A} (l : list (bool * A)) (d : A) : A :=
  match l with [] => d | (b, x) :: t => if b then x else ifs t d end.

Lemma ifs_all_false {A} (l : list (bool * A)) d : Forall (eq false) (map fst l) -> ifs l d = d.
Proof. induction l as [|[b x] t IH]; cbn; [|intros H; inversion H; subst]; auto. Qed.

(* the leading arms (of type A) of a nested conditional whose tests mention v, and what follows them *)
Ltac ifs_arms A v t :=
  lazymatch t with
  | (if ?b then ?x else ?y) =>
    lazymatch b with
    | context [v] => let l := ifs_arms A v y in constr:((b, x) :: l)
    | _ => constr:(@nil (bool * A))
    end
  | _ => constr:(@nil (bool * A))
  end.
Ltac ifs_rest v t :=
  lazymatch t with
  | (if ?b then _ else ?y) => lazymatch b with context [v] => ifs_rest v y | _ => t end
  | _ => t
  end.
(* state the left-hand side of the goal as `ifs` over its leading tests on v *)
Ltac as_ifs v :=
  lazymatch goal with |- ?t = _ =>
    let A := type of t in
    let l := ifs_arms A v t in let d := ifs_rest v t in change t with (ifs l d) end.
