(* C13: the PSW values along the normal-exception path and RETG, and the two invariants behind precision: a read
   leaves registers and memories alone (`keeps`), and so does a write that fails (`keeps_on_err`); both are closed
   under bind and proved of every operand access and arm helper. *)
From Coq Require Import ZArith Bool List.
From Dmd Require Import Model.Bits Model.Types Model.Mem Model.Bus Model.Decode Model.Cpu.
From Dmd Require Import Proofs.BitKit Proofs.MemProofs Proofs.BusProofs Proofs.RegKit Proofs.Arms
     Proofs.MachKit Proofs.ResetProofs Proofs.OperandProofs.
Open Scope Z_scope.

(* the PSW that is pushed: ET = 0, ISC = 3, everything else as at the fault *)
Definition exc_psw_pushed (psw : Z) : Z :=
  Z.lor (clr32 (Z.lor (Z.lor (clr32 (clr32 psw F_ET) F_ISC) 3) 40) (F_ET + F_ISC)) 24.

(* the PSW the gate installs: flags etc. from the table entry p; PM := old CM; IPL and R kept; ISC 7, TM 1, ET 3 *)
Definition gate_psw (p cur : Z) : Z :=
  let p := clr32 p (F_PM + F_IPL + F_R + F_ISC + F_TM + F_ET) in
  let p := Z.lor p (Z.shiftr (Z.land cur F_CM) 2) in
  let p := Z.lor p (Z.land cur F_IPL) in
  let p := Z.lor p (Z.land cur F_R) in
  Z.lor (Z.lor (Z.lor p 56) 4) 3.

Definition retg_psw (new_psw cur : Z) : Z :=
  let keep := F_IPL + F_CFD + F_QIE + F_CD + F_R in
  let p := clr32 new_psw (keep + F_ISC + F_TM + F_ET) in
  let p := Z.lor p (Z.land cur F_IPL) in
  let p := Z.lor p (Z.land cur F_CFD) in
  let p := Z.lor p (Z.land cur F_QIE) in
  let p := Z.lor p (Z.land cur F_CD) in
  let p := Z.lor p (Z.land cur F_R) in
  Z.lor (Z.lor p 56) 3.

(* RETG: N Z V C, CM, PM, I come from the popped word; IPL from the current PSW *)
Lemma retg_takes_bit new_psw cur k :
  In k [21; 20; 19; 18; 12; 11; 10; 9; 7] ->
  Z.testbit (retg_psw new_psw cur) k = Z.testbit new_psw k.
Proof.
  intros Hk. unfold retg_psw. cbv zeta. cbn [In] in Hk. repeat (destruct Hk as [<-|Hk]; [now psw_bit|]). contradiction.
Qed.

Lemma retg_keeps_ipl new_psw cur k :
  In k [13; 14; 15; 16] -> Z.testbit (retg_psw new_psw cur) k = Z.testbit cur k.
Proof.
  intros Hk. unfold retg_psw. cbv zeta. cbn [In] in Hk.
  repeat (destruct Hk as [<-|Hk]; [psw_bit; now rewrite ?orb_false_l|]). contradiction.
Qed.

Lemma exec_retg ir m : iopcode ir = 12357 ->
  exec ir m = bind (rd_word (usub (R m R_SP) 4) m) (fun new_psw m => bind (rd_word (usub (R m R_SP) 8) m) (fun new_pc m =>
    let m := setPSW m (retg_psw new_psw (PSW m)) in
    let m := setR m R_PC new_pc in
    Ok 0 (setR m R_SP (sub32 (R m R_SP) 8)))).
Proof. arm_eq ir. Qed.

Definition state_kept (m m' : mach) : Prop :=
  mregs m' = mregs m /\ rom (mbus m') = rom (mbus m) /\ vid (mbus m') = vid (mbus m)
  /\ bbram (mbus m') = bbram (mbus m) /\ ram (mbus m') = ram (mbus m).

Lemma state_kept_refl m : state_kept m m.
Proof. repeat split. Qed.
Lemma state_kept_trans a b c : state_kept a b -> state_kept b c -> state_kept a c.
Proof. unfold state_kept. intuition congruence. Qed.

Definition keeps {A} (m : mach) (r : res mach A) : Prop :=
  match r with Ok _ m' | Err _ m' => state_kept m m' | _ => True end.

Lemma mems_to_kept m m' : mems_same (mbus m) (mbus m') -> mregs m' = mregs m -> state_kept m m'.
Proof. unfold mems_same, state_kept. intuition. Qed.

Lemma liftb_keeps {A} (f : bus -> res bus A) m :
  (match f (mbus m) with Ok _ b' | Err _ b' => mems_same (mbus m) b' | _ => True end) -> keeps m (liftb f m).
Proof.
  unfold liftb, keeps. destruct (f (mbus m)); auto; intros H; apply mems_to_kept; cbn; auto.
Qed.
Lemma rd_byte_keeps a m : keeps m (rd_byte a m).
Proof. apply liftb_keeps. apply (bus_read_mems W1). Qed.
Lemma rd_half_keeps a m : keeps m (rd_half a m).
Proof. apply liftb_keeps. apply (bus_read_mems W2). Qed.
Lemma rd_word_keeps a m : keeps m (rd_word a m).
Proof. apply liftb_keeps. apply (bus_read_mems W4). Qed.

Lemma keeps_bind {A B} m (r : res mach A) (k : A -> mach -> res mach B) :
  keeps m r -> (forall a m', state_kept m m' -> keeps m' (k a m')) -> keeps m (bind r k).
Proof.
  destruct r as [a m'|e m'| |]; cbn; auto. intros H K. specialize (K a m' H).
  unfold keeps in *. destruct (k a m'); auto; eapply state_kept_trans; eauto.
Qed.

Lemma effective_address_keeps ir k m : keeps m (effective_address ir k m).
Proof.
  unfold effective_address. cbv zeta.
  destruct (omode (get_op ir k)); unfold illegalM, fail, ret;
    try (cbn; apply state_kept_refl); try apply rd_word_keeps;
    destruct (oreg (get_op ir k)); try (cbn; apply state_kept_refl); try apply rd_word_keeps.
Qed.

Lemma load_keeps t eff m : keeps m (load t eff m).
Proof.
  destruct t; first [apply rd_word_keeps | apply rd_half_keeps | apply rd_byte_keeps | apply state_kept_refl | idtac];
    (apply keeps_bind; [first [apply rd_half_keeps | apply rd_byte_keeps] | intros; apply state_kept_refl]).
Qed.

Lemma read_op_keeps ir k m : keeps m (read_op ir k m).
Proof.
  unfold read_op. cbv zeta.
  destruct (omode (get_op ir k));
    try (apply keeps_bind; [apply effective_address_keeps | intros; apply load_keeps]);
    try apply state_kept_refl.
  destruct (oreg (get_op ir k)); [|apply state_kept_refl].
  destruct (data_type (get_op ir k)); apply state_kept_refl.
Qed.

(* A bus write that returns an error has changed no memory: a device write that fails hands back the bus it was
   given, which is the original one up to the dirty flag (not a memory). *)
Lemma dev_write_mem_err d b r e b' : dev_write_mem d b r = Err e b' -> b' = b.
Proof. destruct r; cbn; congruence. Qed.
Lemma dev_write_err w d a v b e b' : dev_write w d a v b = Err e b' -> b' = b.
Proof. rewrite dev_write_nf. destruct d; cbn [dev_write_byte]; try apply dev_write_mem_err; congruence. Qed.

Lemma mems_mark_dirty a b :
  rom (mark_dirty a b) = rom b /\ vid (mark_dirty a b) = vid b /\ bbram (mark_dirty a b) = bbram b
  /\ ram (mark_dirty a b) = ram b.
Proof. unfold mark_dirty. destruct (is_video_ram b a); repeat split. Qed.

Lemma write_err_mems w a v b e b' : bus_write w a v b = Err e b' ->
  rom b' = rom b /\ vid b' = vid b /\ bbram b' = bbram b /\ ram b' = ram b.
Proof.
  rewrite bus_write_route. destruct (aligned w a); [|intros H; inversion H; auto].
  destruct (get_device a) as [d|]; intros H; [apply dev_write_err in H | inversion H]; subst; apply mems_mark_dirty.
Qed.

Definition keeps_on_err {A} (m : mach) (r : res mach A) : Prop :=
  match r with Err _ m' => state_kept m m' | _ => True end.

Lemma liftb_write_err {A} (f : bus -> res bus A) m :
  (forall e b', f (mbus m) = Err e b' ->
     rom b' = rom (mbus m) /\ vid b' = vid (mbus m) /\ bbram b' = bbram (mbus m) /\ ram b' = ram (mbus m)) ->
  keeps_on_err m (liftb f m).
Proof.
  intros H. unfold liftb, keeps_on_err. destruct (f (mbus m)) eqn:E; auto.
  destruct (H _ _ eq_refl) as [? [? [? ?]]]. repeat split; cbn; auto.
Qed.

Lemma wr_byte_err_keeps a v m : keeps_on_err m (wr_byte a v m).
Proof. apply liftb_write_err. intros e b'. apply (write_err_mems W1). Qed.
Lemma wr_half_err_keeps a v m : keeps_on_err m (wr_half a v m).
Proof. apply liftb_write_err. intros e b'. apply (write_err_mems W2). Qed.
Lemma wr_word_err_keeps a v m : keeps_on_err m (wr_word a v m).
Proof. apply liftb_write_err. intros e b'. apply (write_err_mems W4). Qed.

Lemma keeps_then_err {A B} m (r : res mach A) (k : A -> mach -> res mach B) :
  keeps m r -> (forall a m1, state_kept m m1 -> keeps_on_err m1 (k a m1)) -> keeps_on_err m (bind r k).
Proof.
  destruct r as [a m1|e m1| |]; cbn; auto. intros H K. specialize (K a m1 H).
  unfold keeps_on_err in *. destruct (k a m1); auto. eapply state_kept_trans; eauto.
Qed.

Lemma store_err_keeps t eff v m : keeps_on_err m (store t eff v m).
Proof.
  destruct t; first [apply wr_word_err_keeps | apply wr_half_err_keeps | apply wr_byte_err_keeps | apply state_kept_refl].
Qed.

Lemma write_op_err_keeps ir k v m : keeps_on_err m (write_op ir k v m).
Proof.
  unfold write_op. cbv zeta.
  destruct (omode (get_op ir k));
    try (apply keeps_then_err; [apply effective_address_keeps | intros; apply store_err_keeps]);
    try apply state_kept_refl.
  destruct (oreg (get_op ir k)); [exact I | apply state_kept_refl].
Qed.

Lemma keeps_on_err_last {A B} m (r : res mach A) (k : A -> mach -> res mach B) :
  keeps_on_err m r -> (forall a m1, is_ok (k a m1) = true) -> keeps_on_err m (bind r k).
Proof.
  destruct r as [a m1|e m1| |]; cbn; auto. intros _ K. specialize (K a m1). destruct (k a m1); cbn in *; auto; discriminate.
Qed.

Lemma keeps_on_err_elim {A} m (r : res mach A) e m' : keeps_on_err m r -> r = Err e m' -> state_kept m m'.
Proof. intros K E. rewrite E in K. exact K. Qed.

(* Operand reads keep the state and a failing store has stored nothing, so whatever error comes out of an arm
   that reads, computes, stores once and then only sets condition codes, registers (PSW included) and memories
   are untouched.  add_op is not of that kind: it rejects an untyped destination after the store. *)
Ltac reads := apply keeps_then_err; [apply read_op_keeps|]; intros ? ? _.
Ltac stores := apply keeps_on_err_last; [apply write_op_err_keeps | reflexivity].

Lemma alu_std_keeps ir f dst m : keeps_on_err m (alu_std ir f dst m).
Proof. unfold alu_std. reads. reads. stores. Qed.

Lemma div_arm_keeps ir dst oa ob m : keeps_on_err m (div_arm ir dst oa ob m).
Proof.
  unfold div_arm, zerodiv, fail. reads. reads. destruct (_ =? 0); [apply state_kept_refl|].
  destruct (div_val _ _ _); [stores | apply state_kept_refl].
Qed.
Lemma mod_arm_keeps ir dst m : keeps_on_err m (mod_arm ir dst m).
Proof.
  unfold mod_arm, zerodiv, fail. reads. reads. destruct (_ =? 0); [apply state_kept_refl|].
  destruct (mod_val _ _ _); [stores | apply state_kept_refl].
Qed.

Lemma sub_op_keeps ir a b dst m : keeps_on_err m (sub_op ir a b dst m).
Proof. unfold sub_op. stores. Qed.
Lemma sub_op_fault_precise ir a b dst m e m' : sub_op ir a b dst m = Err e m' -> state_kept m m'.
Proof. apply keeps_on_err_elim, sub_op_keeps. Qed.
