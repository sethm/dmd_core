(* Port-level invariants and the receive/transmit conservation laws (C08, C09, C14). *)
From Coq Require Import ZArith Lia Bool List.
From Dmd Require Import Model.Bits Model.Fifo Model.Mem Model.Duart.
From Dmd Require Import Proofs.BitKit Proofs.FifoProofs.
Open Scope Z_scope.

Section PortProofs.
Context {A : Type}.
Variable dflt : A.
Variable is02 : A -> bool.
Set Default Proof Using "Type".

Notation port := (port A).
Local Arguments fifo_push : simpl never.
Local Arguments fifo_pop : simpl never.
Local Arguments fifo_full : simpl never.
Local Arguments fifo_empty : simpl never.
Local Arguments fifo_contents : simpl never.
Local Arguments fifo_clear : simpl never.
Local Arguments bset : simpl never.
Local Arguments clr8 : simpl never.
Local Arguments Z.lor : simpl never.
Local Arguments Z.land : simpl never.
Local Arguments Z.add : simpl never.
Local Arguments Z.ltb : simpl never.
Local Arguments Z.geb : simpl never.
Local Arguments Z.eqb : simpl never.

Record PInv (p : port) : Prop := {
  inv_fifo : fifo_wf (rx_fifo p);
  inv_rxr : bset (stat p) STS_RXR = true -> 0 < flen (rx_fifo p) /\ rx_enabled p = true;
  inv_shift : rx_shift p <> None -> flen (rx_fifo p) = 3;
  inv_txr : bset (stat p) STS_TXR = true -> tx_hold p = None }.

Ltac stat_bits :=
  unfold STS_RXR, STS_FFL, STS_TXR, STS_TXE, STS_OER, STS_PER, STS_FER, STS_RXB, CNF_ETX, CNF_ERX in *; bits.

Lemma pinv_new now : PInv (port_new dflt now).
Proof.
  constructor; cbn.
  - apply fifo_new_wf.
  - discriminate.
  - congruence.
  - reflexivity.
Qed.

Lemma pinv_ext p p' :
  PInv p -> rx_fifo p' = rx_fifo p -> rx_shift p' = rx_shift p -> tx_hold p' = tx_hold p ->
  conf p' = conf p -> stat p' = stat p -> PInv p'.
Proof.
  intros [F Rx Sh Tx] E1 E2 E3 E4 E5. constructor; unfold rx_enabled in *; rewrite ?E1, ?E2, ?E3, ?E4, ?E5; assumption.
Qed.

Lemma pinv_with_next_tx p v : PInv p -> PInv (with_next_tx p v).
Proof. intros I. apply (pinv_ext p); auto. Qed.

Lemma pinv_with_stat p s :
  PInv p ->
  (bset s STS_RXR = true -> bset (stat p) STS_RXR = true \/ (0 < flen (rx_fifo p) /\ rx_enabled p = true)) ->
  (bset s STS_TXR = true -> bset (stat p) STS_TXR = true \/ tx_hold p = None) ->
  PInv (with_stat p s).
Proof.
  intros [F Rx Sh Tx] H1 H2. constructor; cbn [with_stat rx_fifo stat rx_shift tx_hold conf rx_enabled]; auto.
  - intros Hs. destruct (H1 Hs) as [Hr|Hr]; auto.
  - intros Hs. destruct (H2 Hs) as [Hr|Hr]; auto.
Qed.

Lemma pinv_stat_clr p m : PInv p -> PInv (stat_clr p m).
Proof. intros I. apply pinv_with_stat; auto; intros H; left; stat_bits. Qed.

Lemma pinv_stat_set_other p m :
  PInv p -> bset m STS_RXR = false -> bset m STS_TXR = false -> PInv (stat_set p m).
Proof. intros I M1 M2. apply pinv_with_stat; auto; intros H; left; stat_bits. Qed.

Lemma pinv_set_txr p : PInv p -> tx_hold p = None -> PInv (stat_set p STS_TXR).
Proof. intros I H1. apply pinv_with_stat; auto. intros H; left; stat_bits. Qed.

Lemma pinv_with_conf p v :
  PInv p -> (bset (stat p) STS_RXR = true -> bset (conf p) CNF_ERX = true -> bset v CNF_ERX = true) ->
  PInv (with_conf p v).
Proof.
  intros [F Rx Sh Tx] H. constructor; cbn; auto.
  intros R. destruct (Rx R) as [L E]. split; [exact L|]. unfold rx_enabled in *. cbn. auto.
Qed.

Lemma pinv_drop_rxr p v : PInv p -> PInv (stat_clr (with_conf p v) STS_RXR).
Proof.
  intros [F Rx Sh Tx]. unfold stat_clr. constructor; cbn; auto.
  - intros H. exfalso. stat_bits.
  - intros H. apply Tx. stat_bits.
Qed.

(* the receive pipeline in arrival order: FIFO, then the holding register, then the host queue *)
Definition olist (o : option A) : list A := match o with Some c => [c] | None => [] end.
Definition rx_held (p : port) : list A := fifo_contents (rx_fifo p) ++ olist (rx_shift p).
Definition rx_pipe (p : port) : list A := rx_held p ++ rxq p.

(* the transmit pipeline in the order bytes will reach the host *)
Definition tx_pipe (p : port) : list A := txq p ++ olist (tx_shift p) ++ olist (tx_hold p).

Definition rx_keeps (p q : port) : Prop :=
  mode1 q = mode1 p /\ conf q = conf p /\ char_delay q = char_delay p
  /\ tx_hold q = tx_hold p /\ tx_shift q = tx_shift p /\ txq q = txq p.

Lemma rx_keeps_tx_pipe p q : rx_keeps p q -> tx_pipe q = tx_pipe p.
Proof. intros (_ & _ & _ & H & S & Q). unfold tx_pipe. now rewrite H, S, Q. Qed.

Lemma loopback_ext (p q : port) : mode1 q = mode1 p -> loopback q = loopback p.
Proof. unfold loopback. now intros ->. Qed.

Lemma pinv_rx p q :
  PInv p -> rx_keeps p q -> fifo_wf (rx_fifo q) ->
  (bset (stat q) STS_RXR = true -> 0 < flen (rx_fifo q) /\ rx_enabled p = true) ->
  (rx_shift q <> None -> flen (rx_fifo q) = 3) ->
  (bset (stat q) STS_TXR = true -> bset (stat p) STS_TXR = true) -> PInv q.
Proof.
  intros [F Rx Sh Tx] (_ & C & _ & H & _) Fq R S T. constructor; unfold rx_enabled in *; rewrite ?C, ?H; auto.
Qed.

Lemma rx_char_keeps (p : port) c : rx_keeps p (rx_char p c) /\ rxq (rx_char p c) = rxq p.
Proof.
  unfold rx_char. destruct (fifo_full (rx_fifo p)); cbn [negb].
  - destruct (is_some (rx_shift p)); repeat split.
  - destruct (fifo_push (rx_fifo p) c); cbn; destruct (fifo_full _); repeat split.
Qed.

Lemma rx_char_stat (p : port) c :
  stat (rx_char p c) = Z.lor (stat p) STS_RXR
  \/ stat (rx_char p c) = Z.lor (Z.lor (stat p) STS_FFL) STS_RXR
  \/ stat (rx_char p c) = Z.lor (Z.lor (stat p) STS_OER) STS_RXR.
Proof.
  unfold rx_char. destruct (fifo_full (rx_fifo p)); cbn [negb].
  - destruct (is_some (rx_shift p)); cbn; auto.
  - destruct (fifo_push (rx_fifo p) c); cbn; destruct (fifo_full _); cbn; auto.
Qed.

Lemma rx_char_grows (p : port) c : bits_grow (stat p) (stat (rx_char p c)).
Proof.
  destruct (rx_char_stat p c) as [E|[E|E]]; rewrite E;
    repeat (eapply bits_grow_trans; [|apply bits_grow_lor]); apply bits_grow_refl.
Qed.

Lemma rx_char_rxr (p : port) c : bset (stat (rx_char p c)) STS_RXR = true.
Proof. destruct (rx_char_stat p c) as [E|[E|E]]; rewrite E; stat_bits. Qed.

Lemma rx_char_spec p c :
  PInv p -> rx_enabled p = true ->
  PInv (rx_char p c)
  /\ ((rx_shift p = None \/ flen (rx_fifo p) < 3) /\ rx_held (rx_char p c) = rx_held p ++ [c]
      \/ (exists old, rx_shift p = Some old /\ flen (rx_fifo p) = 3
                      /\ rx_held (rx_char p c) = fifo_contents (rx_fifo p) ++ [c]
                      /\ bset (stat (rx_char p c)) STS_OER = true)).
Proof.
  intros I En. pose proof I as [F Rx Sh Tx]. destruct F as (Fl & Fr).
  assert (T : bset (stat (rx_char p c)) STS_TXR = true -> bset (stat p) STS_TXR = true)
    by (destruct (rx_char_stat p c) as [E|[E|E]]; rewrite E; intros H; stat_bits).
  assert (J : fifo_wf (rx_fifo (rx_char p c)) -> 0 < flen (rx_fifo (rx_char p c)) ->
              (rx_shift (rx_char p c) <> None -> flen (rx_fifo (rx_char p c)) = 3) -> PInv (rx_char p c))
    by (intros; apply (pinv_rx p); auto; apply rx_char_keeps).
  revert T J. unfold rx_char, rx_held.
  destruct (fifo_full (rx_fifo p)) eqn:Full; cbn [negb].
  - apply fifo_full_spec in Full. destruct (rx_shift p) as [old|] eqn:Eo; cbn; intros _ J.
    + split; [apply J; [split|..]; auto; lia|]. right. exists old. repeat split; auto. stat_bits.
    + split; [apply J; [split|..]; auto; lia|]. left. rewrite app_nil_r. auto.
  - (* room in the FIFO: it is pushed, and nothing is held behind a FIFO that was not full *)
    assert (Hl : flen (rx_fifo p) < 3) by (destruct (Z.eq_dec (flen (rx_fifo p)) 3) as [E|E]; [apply fifo_full_spec in E; congruence | lia]).
    destruct (fifo_push_spec (rx_fifo p) c (conj Fl Fr) Hl) as (q' & Ep & Fq & Lq & Cq). rewrite Ep.
    assert (Shn : rx_shift p = None) by (destruct (rx_shift p) eqn:E; [exfalso; assert (flen (rx_fifo p) = 3) by (apply Sh; congruence); lia | reflexivity]).
    destruct (fifo_full (rx_fifo (with_fifo p q'))); cbn; intros _ J;
      (split; [apply J; auto; [lia | congruence] | left; split; [auto|]; rewrite Cq, Shn; cbn; now rewrite !app_nil_r]).
Qed.

Lemma rx_read_char_keeps (p : port) : rx_keeps p (snd (rx_read_char p)) /\ rxq (snd (rx_read_char p)) = rxq p.
Proof.
  unfold rx_read_char. destruct (negb _); [repeat split|]. destruct (fifo_pop (rx_fifo p)) as [[v f1]|]; [|repeat split]. cbn.
  destruct (rx_shift p); cbn; [destruct (fifo_push f1 a); cbn; destruct (fifo_full _); cbn|]; destruct (fifo_empty _); repeat split.
Qed.

Lemma rx_read_char_stat (p : port) m :
  m = STS_TXR \/ m = STS_OER -> bset (stat (snd (rx_read_char p))) m = bset (stat p) m.
Proof.
  intros Hm. unfold rx_read_char. destruct (negb _); [reflexivity|].
  destruct (fifo_pop (rx_fifo p)) as [[v f1]|]; cbn; [|destruct Hm as [->| ->]; stat_bits].
  destruct (rx_shift p); cbn; [destruct (fifo_push f1 a); cbn; destruct (fifo_full _); cbn|]; destruct (fifo_empty _); cbn;
    destruct Hm as [->| ->]; stat_bits.
Qed.

Lemma pinv_held_rxr p : PInv p -> rx_held p = [] -> bset (stat p) STS_RXR = false.
Proof.
  intros [F Rx _ _] H. apply not_true_is_false. intros R. destruct (Rx R) as [L _].
  pose proof (fifo_contents_length _ F) as HL. unfold rx_held in H.
  destruct (fifo_contents (rx_fifo p)); [cbn in HL; lia | discriminate].
Qed.

Lemma rx_read_char_spec p :
  PInv p ->
  PInv (snd (rx_read_char p))
  /\ match fst (rx_read_char p) with
     | Some v => rx_held p = v :: rx_held (snd (rx_read_char p))
     | None => rx_held (snd (rx_read_char p)) = rx_held p
     end.
Proof.
  intros I. pose proof I as [F Rx Sh Tx]. pose proof F as (Fl & _).
  (* after a successful pop the holding register is empty; the invariant then needs a well-formed FIFO that is
     not empty while RxRDY is up *)
  assert (J : rx_enabled p = true -> fifo_wf (rx_fifo (snd (rx_read_char p))) ->
              (bset (stat (snd (rx_read_char p))) STS_RXR = true -> 0 < flen (rx_fifo (snd (rx_read_char p)))) ->
              rx_shift (snd (rx_read_char p)) = None -> PInv (snd (rx_read_char p))).
  { intros En Fq R S. apply (pinv_rx p); auto; [apply rx_read_char_keeps | congruence | now rewrite rx_read_char_stat by auto]. }
  revert J. unfold rx_read_char, rx_held. destruct (rx_enabled p) eqn:En; cbn [negb fst snd]; intros J; [|auto].
  specialize (J eq_refl). destruct (Z.eq_dec (flen (rx_fifo p)) 0) as [E0|E0].
  { rewrite (fifo_pop_empty _ E0). cbn [fst snd]. split; [apply pinv_stat_clr, I | reflexivity]. }
  destruct (fifo_pop_spec _ F ltac:(lia)) as (v & q' & Ep & Fq & Lq & Cq). revert J. rewrite Ep. cbn.
  destruct (rx_shift p) as [c|] eqn:Es.
  - (* the held byte moves into the slot the read has freed: the FIFO is full again *)
    assert (L3 : flen (rx_fifo p) = 3) by (apply Sh; congruence).
    destruct (fifo_push_spec q' c Fq ltac:(lia)) as (q2 & Ep2 & Fq2 & Lq2 & Cq2).
    assert (Full : fifo_full q2 = true) by (apply fifo_full_spec; lia).
    assert (Ne : fifo_empty q2 = false) by (destruct (fifo_empty q2) eqn:E; [apply fifo_empty_spec in E; lia | reflexivity]).
    rewrite Ep2. cbn. rewrite Full. cbn. rewrite Ne. cbn. intros J.
    split; [apply J; [exact Fq2 | intros _; lia | reflexivity] | rewrite Cq, Cq2, app_nil_r; reflexivity].
  - destruct (fifo_empty q') eqn:Ee; cbn; rewrite ?Ee; cbn; rewrite ?Es; cbn; intros J;
      (split; [apply J; [exact Fq | | reflexivity] | rewrite Cq, !app_nil_r; reflexivity]).
    + (* that was the last byte: RxRDY drops *) intros H. exfalso. stat_bits.
    + intros _. destruct Fq as (Fl' & _).
      destruct (Z.eq_dec (flen q') 0) as [E|]; [apply fifo_empty_spec in E; congruence | lia].
Qed.

Lemma rx_read_none (p : port) : fst (rx_read_char p) = None -> rx_enabled p = false \/ flen (rx_fifo p) = 0.
Proof.
  unfold rx_read_char, fifo_pop. destruct (rx_enabled p); [|auto].
  destruct (Z.eqb_spec (flen (rx_fifo p)) 0); [auto | discriminate].
Qed.

Lemma read_when_ready p :
  PInv p -> bset (stat p) STS_RXR = true ->
  exists v, fst (rx_read_char p) = Some v /\ rx_held p = v :: rx_held (snd (rx_read_char p)) /\ rx_enabled p = true.
Proof.
  intros I R. destruct (inv_rxr _ I R) as [L En]. destruct (rx_read_char_spec p I) as (_ & Hm).
  destruct (fst (rx_read_char p)) as [v|] eqn:E; [eauto|]. destruct (rx_read_none p E); [congruence | lia].
Qed.

Lemma rx_service_cases now (p : port) :
  rx_service now p = p /\ (rx_enabled p = false \/ rxq p = [] \/ now < next_rx p)
  \/ loopback p = true /\ rx_service now p = with_next_rx p (now + char_delay p)
  \/ loopback p = false /\ exists c rest, rxq p = c :: rest /\ rx_enabled p = true /\ now >= next_rx p
       /\ rx_service now p = with_next_rx (rx_char (with_rxq p rest) c) (now + char_delay p).
Proof.
  unfold rx_service. destruct (rx_enabled p); [|auto]. destruct (rxq p) as [|c rest]; [auto|].
  destruct (Z.geb_spec now (next_rx p)); cbn [andb negb]; [|left; split; auto; right; right; lia].
  destruct (loopback p); cbn [negb]; [auto|]. right. right. split; [reflexivity|]. exists c, rest. repeat split; auto; [lia|].
  destruct (rx_char_keeps (with_rxq p rest) c) as ((_ & _ & E & _) & _). now rewrite E.
Qed.

Lemma rx_service_keeps now p : rx_keeps p (rx_service now p) /\ bits_grow (stat p) (stat (rx_service now p)).
Proof.
  destruct (rx_service_cases now p) as [[-> _]|[[_ ->]|(_ & c & rest & _ & _ & _ & ->)]].
  - split; [repeat split | apply bits_grow_refl].
  - split; [repeat split | apply bits_grow_refl].
  - split; [exact (proj1 (rx_char_keeps (with_rxq p rest) c)) | exact (rx_char_grows (with_rxq p rest) c)].
Qed.

Lemma rx_service_spec now p :
  PInv p ->
  let p' := rx_service now p in
  PInv p'
  /\ (loopback p = false ->
      rx_pipe p' = rx_pipe p
      \/ exists old c rest, rx_shift p = Some old /\ rxq p = c :: rest
                            /\ rx_pipe p' = fifo_contents (rx_fifo p) ++ c :: rest
                            /\ bset (stat p') STS_OER = true).
Proof.
  intros I. cbv zeta.
  destruct (rx_service_cases now p) as [[-> _]|[[_ ->]|(_ & c & rest & Eq & En & _ & ->)]];
    [auto | split; [apply (pinv_ext p); auto | left; reflexivity] |].
  assert (I0 : PInv (with_rxq p rest)) by (apply (pinv_ext p); auto).
  destruct (rx_char_spec _ c I0 En) as (I1 & Cases). destruct (rx_char_keeps (with_rxq p rest) c) as (_ & Q).
  split; [apply (pinv_ext (rx_char (with_rxq p rest) c)); auto|]. intros _.
  unfold rx_pipe, rx_held in *. cbn [with_next_rx rx_fifo rx_shift rxq stat]. rewrite Q.
  destruct Cases as [[_ Hh]|(old & Ho & _ & Hh & Ov)]; rewrite Hh; cbn [with_rxq rx_fifo rx_shift rxq].
  - left. rewrite Eq, <- !app_assoc. reflexivity.
  - right. exists old, c, rest. rewrite <- app_assoc. auto.
Qed.

(* tx_service in stages: a finished character leaves the shift register (tx_emit, tx_done), then a waiting one
   enters it (tx_load) *)
Definition tx_emit (kbd : bool) (c : A) (p : port) : port :=
  if loopback p then (if rx_enabled p then rx_char p c else p)
  else let pk := if kbd && is02 c then stat_set p STS_PER else p in with_txq pk (txq pk ++ [c]).
Definition tx_done (p : port) : port :=
  let pb := with_tx_shift p None in
  if negb (is_some (tx_hold pb)) then stat_set (stat_set pb STS_TXR) STS_TXE else pb.
Definition tx_load (now : Z) (p : port) : port :=
  match tx_hold p with
  | Some c => with_next_tx (with_tx_hold (with_tx_shift p (Some c)) None) (now + char_delay p)
  | None => p
  end.

Lemma tx_service_eq now kbd (p : port) :
  tx_service is02 now kbd p =
  if negb (is_some (tx_hold p)) && negb (is_some (tx_shift p)) then p
  else if now >=? next_tx p
       then tx_load now (match tx_shift p with Some c => tx_done (tx_emit kbd c p) | None => p end)
       else p.
Proof. reflexivity. Qed.

Definition tx_keeps (p q : port) : Prop :=
  (PInv p -> PInv q) /\ mode1 q = mode1 p /\ conf q = conf p /\ rxq q = rxq p /\ bits_grow (stat p) (stat q)
  /\ (loopback p = true -> txq q = txq p) /\ (loopback p = false -> rx_held q = rx_held p).

Lemma tx_keeps_refl p : tx_keeps p p.
Proof. unfold tx_keeps. auto 8 using bits_grow_refl. Qed.

Lemma tx_keeps_trans p q r : tx_keeps p q -> tx_keeps q r -> tx_keeps p r.
Proof.
  intros (I1 & M1 & C1 & R1 & G1 & T1 & H1) (I2 & M2 & C2 & R2 & G2 & T2 & H2).
  rewrite (loopback_ext _ _ M1) in *. unfold tx_keeps. rewrite M2, C2, R2.
  split; [auto|]. do 3 (split; [assumption|]). split; [eapply bits_grow_trans; eassumption|].
  split; intros L; [rewrite T2, T1 | rewrite H2, H1]; auto.
Qed.

Lemma tx_emit_keeps kbd c p : tx_keeps p (tx_emit kbd c p).
Proof.
  unfold tx_emit. destruct (loopback p) eqn:Lb.
  - destruct (rx_enabled p) eqn:En; [|apply tx_keeps_refl].
    destruct (rx_char_keeps p c) as ((M & C & _ & _ & _ & T) & Q). unfold tx_keeps. rewrite M, C, Q, T.
    split; [intros I; apply rx_char_spec; assumption|]. do 3 (split; [reflexivity|]).
    split; [apply rx_char_grows|]. split; [reflexivity | congruence].
  - cbv zeta. unfold tx_keeps. destruct (kbd && is02 c); cbn.
    + split; [intros I; apply (pinv_ext (stat_set p STS_PER)); auto; apply pinv_stat_set_other; auto|].
      do 3 (split; [reflexivity|]). split; [apply bits_grow_lor|]. split; [congruence | reflexivity].
    + split; [intros I; apply (pinv_ext p); auto|].
      do 3 (split; [reflexivity|]). split; [apply bits_grow_refl|]. split; [congruence | reflexivity].
Qed.

Lemma tx_done_keeps p : tx_keeps p (tx_done p).
Proof.
  unfold tx_done, tx_keeps. cbn [with_tx_shift tx_hold]. destruct (tx_hold p) eqn:Eh; cbn.
  - split; [intros I; apply (pinv_ext p); auto|]. auto 8 using bits_grow_refl.
  - split; [intros I; apply pinv_stat_set_other; [apply pinv_set_txr; [apply (pinv_ext p); auto | exact Eh] | reflexivity..]|].
    do 3 (split; [reflexivity|]). split; [eapply bits_grow_trans; apply bits_grow_lor | auto].
Qed.

Lemma tx_load_keeps now p : tx_keeps p (tx_load now p).
Proof.
  unfold tx_load. destruct (tx_hold p) eqn:Eh; [|apply tx_keeps_refl]. unfold tx_keeps. cbn.
  split; [intros [F Rx Sh Tx]; constructor; cbn; auto|]. auto 8 using bits_grow_refl.
Qed.

Lemma tx_service_keeps now kbd p : tx_keeps p (tx_service is02 now kbd p).
Proof.
  rewrite tx_service_eq. destruct (_ && _); [apply tx_keeps_refl|]. destruct (now >=? next_tx p); [|apply tx_keeps_refl].
  eapply tx_keeps_trans; [|apply tx_load_keeps]. destruct (tx_shift p); [|apply tx_keeps_refl].
  eapply tx_keeps_trans; [apply tx_emit_keeps | apply tx_done_keeps].
Qed.

(* outside loop-back a finished character moves from the shift register to the end of the host queue, and a waiting
   one from the holding register into the empty shift register: the pipeline reads the same before and after *)
Lemma tx_finish_pipe kbd c p :
  loopback p = false -> tx_shift p = Some c ->
  tx_pipe (tx_done (tx_emit kbd c p)) = tx_pipe p /\ tx_shift (tx_done (tx_emit kbd c p)) = None.
Proof.
  intros Lb Es. unfold tx_done, tx_emit, tx_pipe. rewrite Lb. cbv zeta.
  destruct (kbd && is02 c); cbn; destruct (tx_hold p) eqn:Eh; cbn; rewrite ?Es, ?Eh; cbn; (split; [|reflexivity]); now rewrite <- app_assoc.
Qed.

Lemma tx_load_pipe now p : tx_shift p = None -> tx_pipe (tx_load now p) = tx_pipe p.
Proof. intros Es. unfold tx_load, tx_pipe. destruct (tx_hold p) eqn:Eh; cbn; now rewrite Es, ?Eh. Qed.

Lemma tx_service_pipe now kbd p : loopback p = false -> tx_pipe (tx_service is02 now kbd p) = tx_pipe p.
Proof.
  intros Lb. rewrite tx_service_eq. destruct (_ && _); [reflexivity|]. destruct (now >=? next_tx p); [|reflexivity].
  destruct (tx_shift p) as [c|] eqn:Es; [|apply tx_load_pipe, Es].
  destruct (tx_finish_pipe kbd c p Lb Es) as (P & S). now rewrite (tx_load_pipe now _ S).
Qed.

(* port_command runs three stages in sequence: transmitter enable / disable (command bits 3:2), receiver enable /
   disable (bits 1:0), then the miscellaneous command in bits 6:4 *)
Definition cmd_tx (cmd : Z) (p : port) : port :=
  if bset cmd CMD_DTX then disable_tx p else if bset cmd CMD_ETX then enable_tx p else p.
Definition cmd_rx (cmd : Z) (p : port) : port :=
  if bset cmd CMD_DRX then disable_rx p else if bset cmd CMD_ERX then enable_rx p else p.
Definition cmd_x (x : Z) (p : port) : port :=
  if x =? 1 then with_mode_ptr p 0
  else if x =? 2 then
    with_rx_shift (with_fifo (with_conf (stat_clr p STS_RXR) (clr8 (conf p) CNF_ERX)) (fifo_clear (rx_fifo p))) None
  else if x =? 3 then
    with_tx_shift (with_tx_hold (with_conf (stat_clr p (STS_TXR + STS_TXE)) (clr8 (conf p) CNF_ETX)) None) None
  else if x =? 4 then stat_clr p (STS_RXB + STS_FER + STS_PER + STS_OER)
  else if x =? 6 then (if loopback p then stat_set p (STS_RXB + STS_PER) else p)
  else p.

Lemma port_command_stages cmd p :
  port_command cmd p = cmd_x (Z.land (Z.shiftr cmd 4) 7) (cmd_rx cmd (cmd_tx cmd p)).
Proof. reflexivity. Qed.

Lemma pinv_enable_tx p : PInv p -> PInv (enable_tx p).
Proof.
  intros I. unfold enable_tx.
  assert (I1 : PInv (with_conf p (Z.lor (conf p) CNF_ETX))) by (apply pinv_with_conf; [exact I | intros _ E; stat_bits]).
  set (p1 := with_conf p _) in *. clearbody p1.
  assert (I2 : PInv (if negb (is_some (tx_hold p1)) then stat_set p1 STS_TXR else p1))
    by (destruct (tx_hold p1) eqn:E; [exact I1 | apply pinv_set_txr; assumption]).
  set (p2 := if negb (is_some (tx_hold p1)) then _ else _) in *. clearbody p2.
  destruct (negb (is_some (tx_shift p2))); [apply pinv_stat_set_other|]; auto.
Qed.

Lemma pinv_cmd_tx c p : PInv p -> PInv (cmd_tx c p).
Proof.
  intros I. unfold cmd_tx. destruct (bset c CMD_DTX); [|destruct (bset c CMD_ETX); [apply pinv_enable_tx|]; exact I].
  apply pinv_stat_clr, pinv_with_conf; [exact I | intros _ E; stat_bits].
Qed.

Lemma pinv_cmd_rx c p : PInv p -> PInv (cmd_rx c p).
Proof.
  intros I. unfold cmd_rx.
  destruct (bset c CMD_DRX); [|destruct (bset c CMD_ERX); [|exact I]]; apply pinv_drop_rxr, I.
Qed.

Lemma pinv_cmd_x x p : PInv p -> PInv (cmd_x x p).
Proof.
  intros I. unfold cmd_x.
  destruct (x =? 1); [apply (pinv_ext p); auto|].
  destruct (x =? 2).
  { destruct (pinv_drop_rxr p (clr8 (conf p) CNF_ERX) I) as [F Rx Sh Tx]. constructor; cbn in *.
    - apply fifo_clear_spec.
    - intros R. apply Rx in R. destruct R as [_ R]. unfold rx_enabled in R. cbn in R. exfalso. stat_bits.
    - congruence.
    - exact Tx. }
  destruct (x =? 3).
  { assert (I1 : PInv (with_conf (stat_clr p (STS_TXR + STS_TXE)) (clr8 (conf p) CNF_ETX)))
      by (apply pinv_with_conf; [apply pinv_stat_clr, I | intros _ E; cbn in *; stat_bits]).
    destruct I1 as [F Rx Sh Tx]. constructor; cbn in *; auto. }
  destruct (x =? 4); [apply pinv_stat_clr, I|].
  destruct (x =? 6); [|exact I].
  destruct (loopback p); [apply pinv_stat_set_other; auto | exact I].
Qed.

Lemma port_command_inv cmd p : PInv p -> PInv (port_command cmd p).
Proof. intros I. rewrite port_command_stages. apply pinv_cmd_x, pinv_cmd_rx, pinv_cmd_tx, I. Qed.

Definition cmd_keeps (p q : port) : Prop :=
  mode1 q = mode1 p /\ rxq q = rxq p /\ rx_held q = rx_held p /\ tx_pipe q = tx_pipe p /\ txq q = txq p
  /\ bset (stat q) STS_OER = bset (stat p) STS_OER.

Lemma cmd_tx_keeps c p : cmd_keeps p (cmd_tx c p).
Proof.
  unfold cmd_tx, enable_tx, disable_tx. destruct p as [m0 m1 mp st cf ff rs th ts rq tq cd nt nr].
  destruct (bset c CMD_DTX); [|destruct (bset c CMD_ETX); [destruct th, ts|]]; repeat split; cbn; stat_bits.
Qed.
Lemma cmd_rx_keeps c p : cmd_keeps p (cmd_rx c p).
Proof. unfold cmd_rx. destruct (bset c CMD_DRX); [|destruct (bset c CMD_ERX)]; repeat split; cbn; stat_bits. Qed.

(* x is the command in bits 6:4: 2 resets the receiver, 3 the transmitter, 4 the error flags *)
Lemma port_command_spec c p :
  let x := Z.land (Z.shiftr c 4) 7 in
  let p' := port_command c p in
  mode1 p' = mode1 p /\ rxq p' = rxq p
  /\ rx_held p' = (if x =? 2 then [] else rx_held p)
  /\ tx_pipe p' = (if x =? 3 then txq p else tx_pipe p)
  /\ ((x =? 4) = false -> bset (stat p') STS_OER = bset (stat p) STS_OER).
Proof.
  cbv zeta. rewrite port_command_stages. generalize (Z.land (Z.shiftr c 4) 7). intros x.
  destruct (cmd_tx_keeps c p) as (M1 & Q1 & H1 & T1 & X1 & O1).
  destruct (cmd_rx_keeps c (cmd_tx c p)) as (M2 & Q2 & H2 & T2 & X2 & O2).
  rewrite <- M1, <- M2, <- Q1, <- Q2, <- H1, <- H2, <- T1, <- T2, <- X1, <- X2, <- O1, <- O2.
  generalize (cmd_rx c (cmd_tx c p)). clear. intros q. unfold cmd_x, rx_held, tx_pipe.
  destruct (Z.eqb_spec x 1) as [->|]; [cbn; auto 6|].
  destruct (Z.eqb_spec x 2) as [->|]; [cbn; repeat split; stat_bits|].
  destruct (Z.eqb_spec x 3) as [->|]; [cbn; rewrite app_nil_r; repeat split; stat_bits|].
  destruct (Z.eqb_spec x 4) as [->|]; [cbn; repeat split; discriminate|].
  destruct (Z.eqb_spec x 6) as [->|]; [|cbn; auto 6].
  destruct (loopback _); cbn; repeat split; stat_bits.
Qed.

Lemma cmd_x_ready x (p : port) m :
  m = STS_RXR \/ m = STS_TXR -> bset (stat (cmd_x x p)) m = true -> bset (stat p) m = true.
Proof.
  unfold cmd_x. intros Hm.
  destruct (x =? 1); [auto|]. destruct (x =? 2); [destruct Hm as [->| ->]; cbn; stat_bits|].
  destruct (x =? 3); [destruct Hm as [->| ->]; cbn; stat_bits|].
  destruct (x =? 4); [destruct Hm as [->| ->]; cbn; stat_bits|].
  destruct (x =? 6); [|auto]. destruct (loopback p); [|auto]. destruct Hm as [->| ->]; cbn; stat_bits.
Qed.

Lemma port_command_drx cmd (p : port) : bset cmd CMD_DRX = true -> bset (stat (port_command cmd p)) STS_RXR = false.
Proof.
  intros H. rewrite port_command_stages. apply not_true_is_false. intros R. apply cmd_x_ready in R; [|auto].
  unfold cmd_rx in R. rewrite H in R. cbn in R. stat_bits.
Qed.

Lemma port_command_dtx cmd (p : port) : bset cmd CMD_DTX = true -> bset (stat (port_command cmd p)) STS_TXR = false.
Proof.
  intros H. rewrite port_command_stages. apply not_true_is_false. intros R. apply cmd_x_ready in R; [|auto].
  unfold cmd_rx, cmd_tx in R. rewrite H in R.
  destruct (bset cmd CMD_DRX); [|destruct (bset cmd CMD_ERX)]; cbn in R; stat_bits.
Qed.

Lemma write_thr_inv p a : PInv p -> PInv (write_thr p a).
Proof.
  intros [F Rx Sh Tx]. unfold write_thr. constructor; cbn; auto.
  - intros H. apply Rx. stat_bits.
  - intros H. exfalso. stat_bits.
Qed.

Inductive pop :=
| PEnq (a : A) | PSvc (tm : Z) (kbd : bool) | PRead | PCmd (c : Z) | PWriteMode (v : Z) | PReadMode
| PSetDelay (d : Z) | PWriteThr (a : A) | PPoll.

Definition pstep (o : pop) (p : port) : port :=
  match o with
  | PEnq a => host_enqueue p a
  | PSvc tm kbd => rx_service tm (tx_service is02 tm kbd p)
  | PRead => snd (rx_read_char p)
  | PCmd c => port_command c p
  | PWriteMode v => write_mode p v
  | PReadMode => snd (read_mode p)
  | PSetDelay d => with_char_delay p d
  | PWriteThr a => write_thr p a
  | PPoll => snd (host_poll p)
  end.

Definition no_lb_op (o : pop) : bool :=
  match o with PWriteMode v => negb (Z.land v 192 =? 128) | _ => true end.
Definition is_reset_rx (c : Z) : bool := Z.land (Z.shiftr c 4) 7 =? 2.
Definition is_reset_err (c : Z) : bool := Z.land (Z.shiftr c 4) 7 =? 4.
Definition is_reset_tx (c : Z) : bool := Z.land (Z.shiftr c 4) 7 =? 3.

Lemma svc_spec tm kbd p :
  PInv p ->
  let p' := rx_service tm (tx_service is02 tm kbd p) in
  PInv p' /\ mode1 p' = mode1 p /\ bits_grow (stat p) (stat p')
  /\ (loopback p = false ->
      tx_pipe p' = tx_pipe p
      /\ (rx_pipe p' = rx_pipe p
          \/ exists old l1 l2, rx_pipe p = l1 ++ old :: l2 /\ rx_pipe p' = l1 ++ l2 /\ bset (stat p') STS_OER = true)).
Proof.
  intros I. cbv zeta. destruct (tx_service_keeps tm kbd p) as (I1 & M1 & _ & R1 & G1 & _ & H1).
  pose proof (tx_service_pipe tm kbd p) as T1. specialize (I1 I).
  generalize dependent (tx_service is02 tm kbd p). intros q I1 M1 R1 G1 H1 T1.
  destruct (rx_service_keeps tm q) as (K2 & G2). destruct (rx_service_spec tm q I1) as (I2 & P2).
  split; [exact I2|]. split; [destruct K2 as (M2 & _); congruence|]. split; [eapply bits_grow_trans; eassumption|].
  intros Lb. rewrite (rx_keeps_tx_pipe _ _ K2), (T1 Lb). split; [reflexivity|].
  assert (E : rx_pipe q = rx_pipe p) by (unfold rx_pipe; now rewrite (H1 Lb), R1). rewrite <- E.
  destruct P2 as [E2|(old & c & rest & Ho & Hq & E2 & Ov)]; [rewrite (loopback_ext _ _ M1); exact Lb | auto |].
  right. exists old, (fifo_contents (rx_fifo q)), (c :: rest). unfold rx_pipe at 1, rx_held. rewrite Ho, Hq, <- app_assoc. auto.
Qed.

Lemma pstep_keeps o p :
  PInv p ->
  PInv (pstep o p)
  /\ (no_lb_op o = true -> loopback p = false -> loopback (pstep o p) = false)
  /\ ((forall c, o = PCmd c -> is_reset_err c = false) ->
      bset (stat p) STS_OER = true -> bset (stat (pstep o p)) STS_OER = true).
Proof.
  intros I. destruct o; cbn [pstep].
  - split; [apply (pinv_ext p); auto | auto].
  - destruct (svc_spec tm kbd p I) as (I' & M & G & _). split; [exact I'|].
    split; [intros _ Lb; now rewrite (loopback_ext _ _ M) | intros _; apply (bits_grow_bset _ _ 4); [lia | exact G]].
  - destruct (rx_read_char_keeps p) as ((M & _) & _). split; [apply (rx_read_char_spec p I)|].
    split; [intros _ Lb; now rewrite (loopback_ext _ _ M) | intros _ H; now rewrite rx_read_char_stat by auto].
  - destruct (port_command_spec c p) as (M & _ & _ & _ & Ho). split; [apply port_command_inv, I|].
    split; [intros _ Lb; now rewrite (loopback_ext _ _ M) | intros Hc H; now rewrite (Ho (Hc c eq_refl))].
  - unfold write_mode, with_mode, loopback. split; [destruct (mode_ptr p =? 0); apply (pinv_ext p); auto|].
    split; [|destruct (mode_ptr p =? 0); auto]. cbn. intros Ok Lb.
    destruct (mode_ptr p =? 0); cbn; [exact Lb|]. destruct (Z.land v 192 =? 128); [discriminate | reflexivity].
  - split; [apply (pinv_ext p); auto | auto].
  - split; [apply (pinv_ext p); auto | auto].
  - split; [apply write_thr_inv, I|]. split; [auto|]. intros _ H. unfold write_thr. cbn. stat_bits.
  - unfold host_poll. destruct (txq p); cbn [snd]; (split; [try exact I; apply (pinv_ext p); auto | auto]).
Qed.

Lemma pinv_step o p : PInv p -> PInv (pstep o p).
Proof. intros I. apply (pstep_keeps o p I). Qed.

Lemma loopback_step o p : loopback p = false -> no_lb_op o = true -> PInv p -> loopback (pstep o p) = false.
Proof. intros Lb Ok I. now apply (pstep_keeps o p I). Qed.

Inductive subseq : list A -> list A -> Prop :=
| sub_nil : subseq [] []
| sub_skip x l1 l2 : subseq l1 l2 -> subseq l1 (x :: l2)
| sub_take x l1 l2 : subseq l1 l2 -> subseq (x :: l1) (x :: l2).

Lemma subseq_refl l : subseq l l.
Proof. induction l; [constructor | apply sub_take; auto]. Qed.
Lemma subseq_nil l : subseq [] l.
Proof. induction l; [constructor | apply sub_skip; auto]. Qed.
Lemma subseq_app_tail l E t : subseq l E -> subseq (l ++ t) (E ++ t).
Proof. induction 1; cbn; [apply subseq_refl | apply sub_skip; assumption | apply sub_take; assumption]. Qed.
Lemma subseq_drop l1 x l2 E : subseq (l1 ++ x :: l2) E -> subseq (l1 ++ l2) E.
Proof.
  remember (l1 ++ x :: l2) as l eqn:El. intros H. revert l1 El.
  induction H as [|y m1 m2 H IH|y m1 m2 H IH]; intros l1 El.
  - destruct l1; discriminate.
  - apply sub_skip. apply IH; exact El.
  - destruct l1 as [|z l1]; cbn in El.
    + inversion El; subst. apply sub_skip. exact H.
    + inversion El; subst. cbn. apply sub_take. apply IH. reflexivity.
Qed.
Lemma subseq_drop_mid l1 m l2 E : subseq (l1 ++ m ++ l2) E -> subseq (l1 ++ l2) E.
Proof.
  revert l1. induction m as [|x m IH]; intros l1 H; [exact H|].
  apply IH. cbn in H. apply (subseq_drop l1 x (m ++ l2)). exact H.
Qed.
Lemma subseq_app_l l1 l2 E : subseq (l1 ++ l2) E -> subseq l1 E.
Proof. intros H. rewrite <- (app_nil_r l1). apply (subseq_drop_mid l1 l2 []). now rewrite app_nil_r. Qed.

(* the shape `rx_pipe_step` concludes, in the cases where nothing is lost: conservation alone gives it, whatever F *)
Lemma no_loss (dD dE P P' : list A) (F : Prop) :
  dD ++ P' = P ++ dE ->
  exists pre lost post, P ++ dE = dD ++ pre ++ lost ++ post /\ P' = pre ++ post /\ (lost = [] \/ F).
Proof. intros E. exists P', [], []. cbn. rewrite !app_nil_r. auto. Qed.

Definition rx_taken (o : pop) (p : port) : list A :=
  match o with PRead => if bset (stat p) STS_RXR then olist (fst (rx_read_char p)) else [] | _ => [] end.
Definition rx_queued (o : pop) : list A := match o with PEnq a => [a] | _ => [] end.

(* one operation on the receive pipeline: bytes disappear from in between only in a step that is a flagged overrun,
   a receiver reset, or a read made while the receiver was not ready *)
Lemma rx_pipe_step o p :
  PInv p -> loopback p = false ->
  exists pre lost post,
    rx_pipe p ++ rx_queued o = rx_taken o p ++ pre ++ lost ++ post /\ rx_pipe (pstep o p) = pre ++ post
    /\ (lost = []
        \/ (exists tm k, o = PSvc tm k /\ bset (stat (pstep o p)) STS_OER = true)
        \/ (exists c, o = PCmd c /\ is_reset_rx c = true)
        \/ (o = PRead /\ bset (stat p) STS_RXR = false)).
Proof.
  intros I Lb. destruct o; cbn [pstep rx_taken rx_queued].
  - apply no_loss. unfold rx_pipe, host_enqueue. cbn. now rewrite app_assoc.
  - destruct (svc_spec tm kbd p I) as (_ & _ & _ & S). destruct (S Lb) as (_ & [E1|(old & l1 & l2 & E1 & E2 & Ov)]).
    + apply no_loss. cbn. now rewrite E1, app_nil_r.
    + exists l1, [old], l2. cbn. rewrite app_nil_r. split; [exact E1|]. split; [exact E2|]. right. left. eauto.
  - destruct (rx_read_char_spec p I) as (_ & Hm). destruct (rx_read_char_keeps p) as (_ & Q).
    assert (E : olist (fst (rx_read_char p)) ++ rx_pipe (snd (rx_read_char p)) = rx_pipe p).
    { unfold rx_pipe. rewrite Q. destruct (fst (rx_read_char p)); rewrite Hm; reflexivity. }
    destruct (bset (stat p) STS_RXR) eqn:Rdy.
    + apply no_loss. now rewrite app_nil_r.
    + exists [], (olist (fst (rx_read_char p))), (rx_pipe (snd (rx_read_char p))). cbn. rewrite app_nil_r. auto 8.
  - destruct (port_command_spec c p) as (_ & Q & Hh & _). unfold is_reset_rx, rx_pipe.
    destruct (_ =? 2) eqn:X.
    + exists [], (rx_held p), (rxq p). cbn. rewrite app_nil_r, Q, Hh. split; [reflexivity|]. split; [reflexivity|].
      right. right. left. exists c. split; [reflexivity | exact X].
    + apply no_loss. cbn. now rewrite app_nil_r, Q, Hh.
  - apply no_loss. cbn. rewrite app_nil_r. unfold write_mode, with_mode. destruct (mode_ptr p =? 0); reflexivity.
  - apply no_loss. cbn. now rewrite app_nil_r.
  - apply no_loss. cbn. now rewrite app_nil_r.
  - apply no_loss. cbn. now rewrite app_nil_r.
  - apply no_loss. cbn. rewrite app_nil_r. unfold host_poll. destruct (txq p); reflexivity.
Qed.

Lemma rx_loss_only_flagged o p :
  PInv p -> loopback p = false -> no_lb_op o = true ->
  let dD := match o with
            | PRead => if bset (stat p) STS_RXR then olist (fst (rx_read_char p)) else []
            | _ => [] end in
  let dE := match o with PEnq a => [a] | _ => [] end in
  dD ++ rx_pipe (pstep o p) = rx_pipe p ++ dE
  \/ (exists tm k, o = PSvc tm k /\ bset (stat (pstep o p)) STS_OER = true)
  \/ (exists c, o = PCmd c /\ is_reset_rx c = true)
  \/ (o = PRead /\ bset (stat p) STS_RXR = false).
Proof using dflt is02.
  intros I Lb Ok. destruct (rx_pipe_step o p I Lb) as (pre & lost & post & E1 & E2 & [->|F]); [left | right; exact F].
  cbv zeta. rewrite E2. symmetry. exact E1.
Qed.

(* ghost run: E = everything the host queued so far, D = bytes the guest read while RxRDY was set *)
Fixpoint rx_run (ops : list pop) (p : port) (E D : list A) : port * list A * list A :=
  match ops with
  | [] => (p, E, D)
  | o :: t =>
    let E' := match o with PEnq a => E ++ [a] | _ => E end in
    let D' := match o with
              | PRead => if bset (stat p) STS_RXR then D ++ olist (fst (rx_read_char p)) else D
              | _ => D end in
    rx_run t (pstep o p) E' D'
  end.

Lemma rx_step_subseq o p E D :
  PInv p -> loopback p = false -> subseq (D ++ rx_pipe p) E ->
  subseq ((match o with
           | PRead => if bset (stat p) STS_RXR then D ++ olist (fst (rx_read_char p)) else D
           | _ => D end) ++ rx_pipe (pstep o p))
         (match o with PEnq a => E ++ [a] | _ => E end).
Proof.
  intros I Lb H. destruct (rx_pipe_step o p I Lb) as (pre & lost & post & E1 & E2 & _).
  replace (match o with PEnq a => E ++ [a] | _ => E end) with (E ++ rx_queued o) by (destruct o; cbn; now rewrite ?app_nil_r).
  replace (match o with PRead => _ | _ => D end) with (D ++ rx_taken o p)
    by (destruct o; cbn; try destruct (bset _ _); now rewrite ?app_nil_r).
  apply (subseq_app_tail _ _ (rx_queued o)) in H. rewrite <- app_assoc, E1 in H. rewrite E2.
  rewrite <- app_assoc, (app_assoc (rx_taken o p)), (app_assoc D). apply (subseq_drop_mid _ lost). now rewrite <- !app_assoc.
Qed.

Definition tx_ok_op (p : port) (o : pop) : bool :=
  match o with
  | PWriteThr _ => bset (stat p) STS_TXR
  | PCmd c => negb (is_reset_tx c)
  | PWriteMode v => negb (Z.land v 192 =? 128)
  | _ => true end.

(* ghost run: W = bytes written (while ready), Q = bytes handed to the host by polls *)
Fixpoint tx_run (ops : list pop) (p : port) (W Q : list A) : option (port * list A * list A) :=
  match ops with
  | [] => Some (p, W, Q)
  | o :: t =>
    if tx_ok_op p o then
      let W' := match o with PWriteThr a => W ++ [a] | _ => W end in
      let Q' := match o with PPoll => Q ++ olist (fst (host_poll p)) | _ => Q end in
      tx_run t (pstep o p) W' Q'
    else None
  end.

Lemma tx_step_exact o p W Q :
  PInv p -> loopback p = false -> tx_ok_op p o = true -> Q ++ tx_pipe p = W ->
  (match o with PPoll => Q ++ olist (fst (host_poll p)) | _ => Q end) ++ tx_pipe (pstep o p)
  = (match o with PWriteThr a => W ++ [a] | _ => W end).
Proof.
  intros I Lb Ok H. destruct o; cbn [pstep].
  - exact H.
  - destruct (svc_spec tm kbd p I) as (_ & _ & _ & S). destruct (S Lb) as (T & _). now rewrite T.
  - now rewrite (rx_keeps_tx_pipe _ _ (proj1 (rx_read_char_keeps p))).
  - destruct (port_command_spec c p) as (_ & _ & _ & T & _). cbn in Ok. apply negb_true_iff in Ok.
    unfold is_reset_tx in Ok. now rewrite T, Ok.
  - replace (tx_pipe (write_mode p v)) with (tx_pipe p); [exact H|].
    unfold write_mode, with_mode. destruct (mode_ptr p =? 0); reflexivity.
  - exact H.
  - exact H.
  - (* TxRDY: the holding register was empty, so the byte joins the end of the pipeline *)
    cbn in Ok. pose proof (inv_txr p I Ok) as Hn. unfold write_thr, tx_pipe in *. cbn. rewrite Hn in H. cbn in H.
    rewrite <- H, <- !app_assoc. cbn. now rewrite ?app_nil_r.
  - unfold host_poll, tx_pipe in *. destruct (txq p) as [|c t] eqn:Et; cbn in *; rewrite ?Et;
      [now rewrite app_nil_r | now rewrite <- H, <- !app_assoc].
Qed.

Theorem tx_exactly_once_in_order ops : forall p W Q,
  PInv p -> loopback p = false -> Q ++ tx_pipe p = W ->
  match tx_run ops p W Q with
  | Some (p', W', Q') => Q' ++ tx_pipe p' = W'
  | None => True
  end.
Proof using dflt is02.
  induction ops as [|o t IH]; intros p W Q I Lb H; cbn [tx_run]; [exact H|].
  destruct (tx_ok_op p o) eqn:Ok; [|exact Logic.I].
  apply IH; auto using pinv_step, tx_step_exact. apply loopback_step; auto. destruct o; auto.
Qed.

End PortProofs.
