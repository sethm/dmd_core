(* Register file and machine-state lemmas: get/set, projections through setR / with_bus. *)
From Coq Require Import ZArith Lia Bool List.
From Dmd Require Import Model.Bits Model.Types Model.Mem Model.Bus Model.Cpu.
Open Scope Z_scope.

(* an index outside 0..14 selects the last register; splitting on this first keeps the case analysis off the
   doubly unfolded term *)
Lemma rset_out r i v : ~ 0 <= i <= 14 -> rset r i v = rset r 15 v.
Proof.
  intros H. unfold rset.
  repeat match goal with |- context [i =? ?k] => destruct (Z.eqb_spec i k) as [->|_]; [lia|] end.
  reflexivity.
Qed.

Lemma rget_rset_same r i v : rget (rset r i v) i = v.
Proof.
  unfold rget.
  repeat match goal with |- context [i =? ?k] => destruct (Z.eqb_spec i k) as [->|?]; [reflexivity|] end.
  rewrite rset_out by lia. reflexivity.
Qed.

Ltac enum16 i H :=
  assert (i = 0 \/ i = 1 \/ i = 2 \/ i = 3 \/ i = 4 \/ i = 5 \/ i = 6 \/ i = 7 \/ i = 8 \/ i = 9 \/ i = 10
          \/ i = 11 \/ i = 12 \/ i = 13 \/ i = 14 \/ i = 15) as H by lia.

Lemma rget_rset_other r i j v : 0 <= i <= 15 -> 0 <= j <= 15 -> i <> j -> rget (rset r i v) j = rget r j.
Proof.
  intros Hi Hj N. enum16 i Ei. enum16 j Ej.
  repeat (destruct Ei as [Ei|Ei]); subst i;
    repeat (destruct Ej as [Ej|Ej]); subst j; try reflexivity; try (exfalso; apply N; reflexivity).
Qed.

Lemma R_setR_same m i v : R (setR m i v) i = v.
Proof. unfold R, setR, with_regs; cbn [mregs]. apply rget_rset_same. Qed.

Lemma R_setR_other m i j v : 0 <= i <= 15 -> 0 <= j <= 15 -> i <> j -> R (setR m i v) j = R m j.
Proof. intros. unfold R, setR, with_regs; cbn [mregs]. now apply rget_rset_other. Qed.

Lemma mbus_setR m i v : mbus (setR m i v) = mbus m.
Proof. reflexivity. Qed.
Lemma mbus_setPSW m v : mbus (setPSW m v) = mbus m.
Proof. reflexivity. Qed.
Lemma mbus_with_bus m b : mbus (with_bus m b) = b.
Proof. reflexivity. Qed.
Lemma mregs_with_bus m b : mregs (with_bus m b) = mregs m.
Proof. reflexivity. Qed.
Lemma R_with_bus m b i : R (with_bus m b) i = R m i.
Proof. reflexivity. Qed.
Lemma mbus_setf mask v m : mbus (setf mask v m) = mbus m.
Proof. reflexivity. Qed.
Lemma R_setf_other mask v m j : 0 <= j <= 15 -> j <> 11 -> R (setf mask v m) j = R m j.
Proof. intros. unfold setf, setPSW. apply R_setR_other; unfold R_PSW; lia. Qed.

Lemma liftb_regs {A} (f : bus -> res bus A) m :
  match liftb f m with
  | Ok _ m' | Err _ m' => mregs m' = mregs m
  | _ => True
  end.
Proof. unfold liftb. destruct (f (mbus m)); cbn; auto. Qed.

Lemma liftb_ok {A} (f : bus -> res bus A) m a m' :
  liftb f m = Ok a m' -> f (mbus m) = Ok a (mbus m') /\ mregs m' = mregs m.
Proof.
  unfold liftb. destruct (f (mbus m)) eqn:E; intros H; inversion H; subst; cbn; auto.
Qed.
Lemma liftb_err {A} (f : bus -> res bus A) m e m' :
  liftb f m = Err e m' -> f (mbus m) = Err e (mbus m') /\ mregs m' = mregs m.
Proof.
  unfold liftb. destruct (f (mbus m)) eqn:E; intros H; inversion H; subst; cbn; auto.
Qed.

Lemma R_of_regs m m' i : mregs m' = mregs m -> R m' i = R m i.
Proof. unfold R. now intros ->. Qed.

Lemma rset_rset_same r i a b : rset (rset r i a) i b = rset r i b.
Proof.
  destruct (Z_le_dec 0 i) as [L|L]; [destruct (Z_le_dec i 14) as [U|U]|].
  - assert (E : i = 0 \/ i = 1 \/ i = 2 \/ i = 3 \/ i = 4 \/ i = 5 \/ i = 6 \/ i = 7 \/ i = 8 \/ i = 9 \/ i = 10
                \/ i = 11 \/ i = 12 \/ i = 13 \/ i = 14) by lia.
    repeat (destruct E as [->|E]; [reflexivity|]). subst i. reflexivity.
  - rewrite !(rset_out _ i) by lia. reflexivity.
  - rewrite !(rset_out _ i) by lia. reflexivity.
Qed.

Lemma setR_setR_same m i a b : setR (setR m i a) i b = setR m i b.
Proof. unfold setR, with_regs. cbn [mregs mbus]. now rewrite rset_rset_same. Qed.

(* the register names as numerals *)
Ltac rconst := unfold R_FP, R_AP, R_PSW, R_SP, R_PCBP, R_ISP, R_PC in *.
