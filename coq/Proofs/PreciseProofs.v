(* C13: every data-processing, move and push/pop instruction is precise with respect to bus faults: when exec returns
   a bus error, all sixteen registers (condition codes included) and all four memories are what they were before
   the instruction started. *)
From Coq Require Import ZArith Bool List.
From Dmd Require Import Model.Bits Model.Types Model.Mem Model.Bus Model.Decode Model.Cpu.
From Dmd Require Import Gen.GenOpcodes.
From Dmd Require Import Proofs.RegKit Proofs.Arms Proofs.ExceptionProofs.
Open Scope Z_scope.

Definition pbus {A} (m : mach) (r : res mach A) : Prop :=
  match r with Err (EBus _) m' => state_kept m m' | _ => True end.
Definition nobus {A} (r : res mach A) : Prop :=
  match r with Err (EBus _) _ => False | _ => True end.

Lemma keeps_on_err_pbus {A} m (r : res mach A) : keeps_on_err m r -> pbus m r.
Proof. destruct r as [| [] | |]; cbn; auto. Qed.

Lemma pbus_bind_keeps {A B} m (r : res mach A) (k : A -> mach -> res mach B) :
  keeps m r -> (forall a m1, state_kept m m1 -> pbus m1 (k a m1)) -> pbus m (bind r k).
Proof.
  destruct r as [a m1|e m1| |]; cbn; auto.
  - intros H K. specialize (K a m1 H). unfold pbus in *. destruct (k a m1) as [? ?|[]? | |]; auto.
    eapply state_kept_trans; eauto.
  - intros H _. destruct e; auto.
Qed.

Lemma pbus_bind_tail {A B} m (r : res mach A) (k : A -> mach -> res mach B) :
  pbus m r -> (forall a m1, nobus (k a m1)) -> pbus m (bind r k).
Proof.
  destruct r as [a m1|e m1| |]; cbn; auto.
  intros _ K. specialize (K a m1). unfold nobus, pbus in *. destruct (k a m1) as [? ?|[]? | |]; auto. contradiction.
Qed.

Lemma stack_push_err_keeps v m : keeps_on_err m (stack_push v m).
Proof.
  unfold stack_push. pose proof (wr_word_err_keeps (R m R_SP) v m) as K.
  destruct (wr_word (R m R_SP) v m); cbn in *; auto.
Qed.

(* after its store add_op can still reject an untyped destination, but not with a bus error *)
Lemma add_op_pbus ir a b dst m : pbus m (add_op ir a b dst m).
Proof.
  unfold add_op. cbv zeta. apply pbus_bind_tail; [apply keeps_on_err_pbus, write_op_err_keeps|].
  intros u m1. destruct (data_type (get_op ir dst)); exact I.
Qed.

(* the opcodes covered: arithmetic, logic, shifts, rotate, fields, moves, compares, tests, swaps, push / pop *)
Definition precise_opcode (opc : Z) : bool :=
  existsb (Z.eqb opc)
    [op_ADDW2; op_ADDH2; op_ADDB2; op_ADDW3; op_ADDH3; op_ADDB3; op_ALSW3;
     op_ANDW2; op_ANDH2; op_ANDB2; op_ANDW3; op_ANDH3; op_ANDB3; op_BITW; op_BITH; op_BITB;
     op_CLRW; op_CLRH; op_CLRB; op_CMPW; op_CMPH; op_CMPB; op_DECW; op_DECH; op_DECB;
     op_DIVW2; op_DIVH2; op_DIVB2; op_DIVW3; op_DIVH3; op_DIVB3; op_EXTFW; op_EXTFH; op_EXTFB;
     op_INCW; op_INCH; op_INCB; op_INSFW; op_INSFH; op_INSFB; op_LLSW3; op_LLSH3; op_LLSB3;
     op_ARSW3; op_ARSH3; op_ARSB3; op_LRSW3; op_MCOMW; op_MCOMH; op_MCOMB; op_MNEGW; op_MNEGH; op_MNEGB;
     op_SWAPWI; op_SWAPHI; op_SWAPBI; op_ROTW; op_MOVAW; op_MOVB; op_MOVH; op_MOVW;
     op_MODW2; op_MODH2; op_MODB2; op_MODW3; op_MODH3; op_MODB3; op_MULW2; op_MULH2; op_MULB2; op_MULW3; op_MULH3; op_MULB3;
     op_ORW2; op_ORH2; op_ORB2; op_ORW3; op_ORH3; op_ORB3; op_POPW; op_PUSHAW; op_PUSHW;
     op_SUBW2; op_SUBH2; op_SUBB2; op_SUBW3; op_SUBH3; op_SUBB3; op_TSTW; op_TSTH; op_TSTB;
     op_XORW2; op_XORH2; op_XORB2; op_XORW3; op_XORH3; op_XORB3; op_NOP; op_NOP2; op_NOP3].

(* One step along an arm, by the shape of what is executed next: a helper that is precise as a whole; a store or a
   push, which is the last step that can raise a bus error; or a read, which keeps the state. *)
Ltac arm_step :=
  lazymatch goal with
  | |- pbus _ (alu_std _ _ _ _) => apply keeps_on_err_pbus, alu_std_keeps
  | |- pbus _ (div_arm _ _ _ _ _) => apply keeps_on_err_pbus, div_arm_keeps
  | |- pbus _ (mod_arm _ _ _) => apply keeps_on_err_pbus, mod_arm_keeps
  | |- pbus _ (bind (add_op _ _ _ _ _) _) => apply pbus_bind_tail; [apply add_op_pbus | intros; exact I]
  | |- pbus _ (bind (sub_op _ _ _ _ _) _) =>
    apply pbus_bind_tail; [apply keeps_on_err_pbus, sub_op_keeps | intros; exact I]
  | |- pbus _ (bind (write_op _ _ _ _) _) =>
    apply pbus_bind_tail; [apply keeps_on_err_pbus, write_op_err_keeps | intros; exact I]
  | |- pbus _ (bind (stack_push _ _) _) =>
    apply pbus_bind_tail; [apply keeps_on_err_pbus, stack_push_err_keeps | intros; exact I]
  | |- pbus _ (bind _ _) =>
    apply pbus_bind_keeps;
    [first [apply read_op_keeps | apply effective_address_keeps | apply rd_word_keeps] | intros ? ? _]
  | |- pbus _ (Ok _ _) => exact I
  end.

Section Arms.
Variable ir : instr.

(* The opcode ranges over a closed list: taking the instruction register apart leaves, for each opcode, exec on a
   closed opcode, which evaluates to its arm. *)
Theorem exec_bus_fault_precise m :
  precise_opcode (iopcode ir) = true -> pbus m (exec ir m).
Proof.
  destruct ir as [c len o0 o1 o2 o3]. cbn [iopcode]. intros H.
  apply existsb_exists in H. destruct H as (x & Hin & E). apply Z.eqb_eq in E. subst x. cbn [In] in Hin.
  repeat (destruct Hin as [<-|Hin]; [exec_whd; repeat arm_step|]). contradiction.
Qed.
End Arms.

Corollary bus_fault_leaves_state ir m e m' :
  precise_opcode (iopcode ir) = true -> exec ir m = Err (EBus e) m' -> state_kept m m'.
Proof. intros H E. pose proof (exec_bus_fault_precise ir m H) as K. rewrite E in K. exact K. Qed.

(* MOV, MCOM, MNEG: whatever the error *)
Lemma unary_arm_keeps ir f m : keeps_on_err m (unary_arm ir f m).
Proof. unfold unary_arm. reads. stores. Qed.
