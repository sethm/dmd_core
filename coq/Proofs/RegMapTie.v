(* Vocabulary for comparing the model's DUART register map with the one translated from /repo/src/duart.rs on every
   run (Gen/GenDuart.v: gd_read_arms, gd_write_arms = the arms of `match (address - START_ADDR) as u8` in read_byte and
   write_byte, each with the channels it names and the interrupt-status bits it clears). *)
From Coq Require Import ZArith List.
From Dmd Require Import Model.Bits.
Import ListNotations.
Open Scope Z_scope.

Definition arm_offsets (l : list (Z * list Z * Z)) : list Z := map (fun x => fst (fst x)) l.

Ltac eval_arms :=
  match goal with
  | |- context [arm_offsets ?l] =>
    let v := eval vm_compute in (arm_offsets l) in change (arm_offsets l) with v
  end.

(* PORT_0 / PORT_1 of the source *)
Definition chan_no (b : bool) : Z := if b then 1 else 0.
