(* The DUART's register file refines two independent ports (C08, C09, C14 at the device's register interface).
   `chan_op` is the register map read as a function: which port operation a device operation performs on a
   channel (if any).  `dstep_chan` shows the device does exactly that to the channel's port and nothing else, for
   every operation (every offset, every value, host side calls, mouse events, interrupt polls).  `drx_ghost` / `dtx_ghost`
   carry the port-level history theorems to device histories in which the two channels, the mouse and the interrupt
   logic interleave freely. *)
From Coq Require Import ZArith Lia Bool List.
From Dmd Require Import Model.Bits Model.Mem Model.Duart.
From Dmd Require Import Proofs.BitKit Proofs.PortProofs Proofs.DuartProofs.
Import ListNotations.
Open Scope Z_scope.

Local Arguments bset : simpl never.
Local Arguments clr8 : simpl never.
Local Arguments Z.lor : simpl never.
Local Arguments Z.land : simpl never.
Local Arguments Z.gtb : simpl never.
Local Arguments delay_rate : simpl never.

Notation popz := (@pop Z).

(* b = false: channel A (RS-232, registers 0x03..0x0f); b = true: channel B (keyboard, registers 0x23..0x2f) *)
Definition chan_base (b : bool) : Z := if b then 32 else 0.
Definition port_of (b : bool) (d : duart) : port Z := if b then pb d else pa d.

Definition chan_op (b : bool) (o : dop) (d : duart) : option popz :=
  match o with
  | DRead off =>
    let off := w8 off in
    if off =? chan_base b + 3 then Some (@PReadMode Z)
    else if off =? chan_base b + 15 then Some (@PRead Z) else None
  | DWrite off v =>
    let off := w8 off in let v := w8 v in
    if off =? chan_base b + 3 then Some (PWriteMode v)
    else if off =? chan_base b + 7 then Some (PSetDelay (delay_rate v (acr d)))
    else if off =? chan_base b + 11 then Some (PCmd v)
    else if off =? chan_base b + 15 then Some (PWriteThr v)
    else None
  | DSvc tm => Some (PSvc tm b)
  | DGetInt _ => None
  | DRxA c => if b then None else Some (PEnq c)
  | DRxB c => if b then Some (PEnq c) else None
  | DTxA => if b then None else Some (@PPoll Z)
  | DTxB => if b then Some (@PPoll Z) else None
  | DMouseDown _ | DMouseUp _ => None
  end.

Lemma dstep_chan b o d :
  port_of b (dstep o d) = match chan_op b o d with Some po => pstepz po (port_of b d) | None => port_of b d end.
Proof.
  destruct o; cbn [dstep chan_op].
  - (* reads and writes: by cases on the offset, each arm of the register map against the row `chan_op` has for it *)
    unfold duart_read_byte. cbv zeta. remember (w8 off) as x eqn:Ex. clear Ex.
    destruct b; unfold chan_base; cbn [Z.add Pos.add Pos.succ port_of];
      off_cases x; try lia; cbn [port_of pstep];
      repeat match goal with |- context [let (_, _) := ?e in _] => destruct e eqn:? end;
      cbn; try reflexivity;
      repeat match goal with H : _ = (_, _) |- _ => cbn in H; rewrite H; clear H end; reflexivity.
  - unfold duart_write_byte. cbv zeta. remember (w8 off) as x eqn:Ex. clear Ex.
    destruct (handle_command_ports (w8 v) 0 d) as [A0 B0]. destruct (handle_command_ports (w8 v) 1 d) as [A1 B1].
    cbn [Z.eqb] in *.
    destruct b; unfold chan_base; cbn [Z.add Pos.add Pos.succ port_of];
      off_cases x; try lia; cbn [port_of pstep]; try assumption; reflexivity.
  - destruct b; reflexivity.
  - destruct (get_interrupt_spec tm d) as (Pa & Pb & _). destruct b; assumption.
  - destruct b; reflexivity.
  - destruct b; reflexivity.
  - unfold duart_rs232_tx. destruct b; cbn; destruct (host_poll (pa d)); reflexivity.
  - unfold duart_keyboard_tx. destruct b; cbn; destruct (host_poll (pb d)); reflexivity.
  - unfold mouse_down. repeat match goal with |- context [if ?c then _ else _] => destruct c end; destruct b; reflexivity.
  - unfold mouse_up. repeat match goal with |- context [if ?c then _ else _] => destruct c end; destruct b; reflexivity.
Qed.

Lemma dinv_port b d : DInv d -> PInv (port_of b d).
Proof. intros [Ia Ib]. destruct b; assumption. Qed.

Lemma dinv_step o d : DInv d -> DInv (dstep o d).
Proof.
  intros I. split; [change (PInv (port_of false (dstep o d))) | change (PInv (port_of true (dstep o d)))];
    rewrite dstep_chan; destruct (chan_op _ o d); try apply pinv_step; apply dinv_port, I.
Qed.

Definition rx_int (b : bool) : Z := if b then KEYBOARD_INT else RX_INT.
Definition rx_ists (b : bool) : Z := if b then ISTS_RBI else ISTS_RAI.

(* no phantom data: RxRDY implies the read returns the oldest really-received byte *)
Lemma rxrdy_no_phantom b d :
  DInv d -> bset (stat (port_of b d)) STS_RXR = true ->
  exists v d', duart_read_byte (chan_base b + 15) d = ROk (v, d')
               /\ rx_held (port_of b d) = v :: rx_held (port_of b d') /\ rx_enabled (port_of b d) = true.
Proof.
  intros I R. pose proof (dinv_port b d I) as Ip.
  destruct (read_when_ready _ Ip R) as (v & Ev & Hm & En). unfold duart_read_byte.
  destruct b; cbn in *; destruct (rx_read_char _) as [o p']; cbn in *; subst o; do 2 eexists; auto.
Qed.

Lemma gi_rx_quiet b tm d : bset (stat (port_of b d)) STS_RXR = false ->
  bset (ivec (snd (get_interrupt tm d))) (rx_int b) = bset (ivec d) (rx_int b)
  /\ bset (isr (snd (get_interrupt tm d))) (rx_ists b) = bset (isr d) (rx_ists b).
Proof.
  intros R. destruct (get_interrupt_spec tm d) as (_ & _ & Iv & Is & _). rewrite Iv, Is. unfold gi_ivec, gi_isr.
  destruct b; cbn [port_of rx_int rx_ists] in *; rewrite R; split; dbits.
Qed.

(* no stuck request: after the read that drains a receiver, its request and ISR bit are withdrawn and stay withdrawn
   across the interrupt poll while the receiver is not ready again *)
Lemma no_stuck_after_drain b d tm :
  let d1 := dstep (DRead (chan_base b + 15)) d in
  bset (stat (port_of b d1)) STS_RXR = false ->
  bset (ivec d1) (rx_int b) = false /\ bset (isr d1) (rx_ists b) = false
  /\ bset (ivec (snd (get_interrupt tm d1))) (rx_int b) = false
  /\ bset (isr (snd (get_interrupt tm d1))) (rx_ists b) = false.
Proof.
  cbv zeta. intros R. destruct (gi_rx_quiet b tm _ R) as (E1 & E2). rewrite E1, E2.
  assert (H : bset (ivec (dstep (DRead (chan_base b + 15)) d)) (rx_int b) = false
              /\ bset (isr (dstep (DRead (chan_base b + 15)) d)) (rx_ists b) = false); [|tauto].
  clear. cbn [dstep]. unfold duart_read_byte, isr_clr, ivec_clr.
  destruct b; cbn; destruct (rx_read_char _); cbn; split; dbits.
Qed.

(* a disable-receiver command on either channel withdraws the source: status bit, vector bit and ISR bit are clear
   afterwards and stay clear across the interrupt poll *)
Lemma disable_rx_withdraws b d cmd tm :
  bset cmd CMD_DRX = true ->
  let d1 := dstep (DWrite (chan_base b + 11) cmd) d in
  bset (stat (port_of b d1)) STS_RXR = false /\ bset (ivec d1) (rx_int b) = false /\ bset (isr d1) (rx_ists b) = false
  /\ bset (ivec (snd (get_interrupt tm d1))) (rx_int b) = false
  /\ bset (isr (snd (get_interrupt tm d1))) (rx_ists b) = false.
Proof.
  intros Hc. cbv zeta.
  assert (Hw : bset (w8 cmd) CMD_DRX = true) by (rewrite <- Hc; exact (bset_w8 cmd 1 ltac:(lia))).
  assert (R : bset (stat (port_of b (dstep (DWrite (chan_base b + 11) cmd) d))) STS_RXR = false).
  { rewrite dstep_chan. destruct b; cbn; apply port_command_drx, Hw. }
  destruct (gi_rx_quiet b tm _ R) as (E1 & E2). rewrite E1, E2.
  assert (H : bset (ivec (dstep (DWrite (chan_base b + 11) cmd) d)) (rx_int b) = false
              /\ bset (isr (dstep (DWrite (chan_base b + 11) cmd) d)) (rx_ists b) = false); [|tauto].
  clear R E1 E2.
  replace (dstep (DWrite (chan_base b + 11) cmd) d) with (handle_command (w8 cmd) (if b then 1 else 0) d)
    by (destruct b; reflexivity).
  split; [rewrite handle_command_ivec, Hw; destruct b; cbn; dbits|].
  rewrite handle_command_stages. cbv zeta. unfold irq_x, irq_rx. rewrite Hw. generalize (irq_tx (w8 cmd)). intros f.
  destruct b; cbn [Z.eqb rx_ists];
    (destruct (_ =? 5); [|destruct (_ || _); [destruct (loopback _)|]]); cbn; dbits.
Qed.

Fixpoint chan_ops (b : bool) (ops : list dop) (d : duart) : list popz :=
  match ops with
  | [] => []
  | o :: t => (match chan_op b o d with Some po => [po] | None => [] end) ++ chan_ops b t (dstep o d)
  end.

Lemma drun_chan b ops d :
  port_of b (drun ops d) = fold_left (fun p po => pstepz po p) (chan_ops b ops d) (port_of b d).
Proof.
  revert d. induction ops as [|o t IH]; intros d; cbn [drun chan_ops]; [reflexivity|].
  rewrite fold_left_app, IH, dstep_chan. destruct (chan_op b o d); reflexivity.
Qed.

Definition read_val (off : Z) (d : duart) : Z :=
  match duart_read_byte off d with ROk (v, _) => v | _ => 0 end.

(* mode writes that would select local loop-back on this channel are excluded (C08 is about host traffic) *)
Definition dev_no_lb (b : bool) (o : dop) : bool :=
  match o with
  | DWrite off v => negb ((w8 off =? chan_base b + 3) && (Z.land (w8 v) 192 =? 128))
  | _ => true
  end.

(* ghost run: E = bytes the host queued for this channel, D = bytes the guest read from this channel's receive
   register while its status register showed RxRDY *)
Fixpoint drx_run (b : bool) (ops : list dop) (d : duart) (E D : list Z) : duart * list Z * list Z :=
  match ops with
  | [] => (d, E, D)
  | o :: t =>
    let E' := match o with
              | DRxA c => if b then E else E ++ [c]
              | DRxB c => if b then E ++ [c] else E
              | _ => E end in
    let D' := match o with
              | DRead off => if (w8 off =? chan_base b + 15) && bset (stat (port_of b d)) STS_RXR
                             then D ++ [read_val off d] else D
              | _ => D end in
    drx_run b t (dstep o d) E' D'
  end.

Lemma w8_idem x : w8 (w8 x) = w8 x.
Proof. unfold w8. apply Z.mod_mod. lia. Qed.

Lemma read_val_rhr b off d :
  DInv d -> w8 off = chan_base b + 15 -> bset (stat (port_of b d)) STS_RXR = true ->
  [read_val off d] = olist (fst (rx_read_char (port_of b d))).
Proof.
  intros I Eo Rx. destruct (read_when_ready _ (dinv_port b d I) Rx) as (v & Hr & _).
  unfold read_val, duart_read_byte. cbv zeta. rewrite Eo.
  destruct b; cbn in *; destruct (rx_read_char _) as [o p']; cbn in *; subst o; reflexivity.
Qed.

(* two different registers of a channel *)
Ltac other_regs :=
  repeat match goal with
         | |- context [chan_base ?b + ?k =? chan_base ?b + ?n] =>
           replace (chan_base b + k =? chan_base b + n) with false by (symmetry; apply Z.eqb_neq; lia)
         end.

Lemma drx_ghost b o d E D :
  DInv d ->
  let po := chan_op b o d in
  (match o with
   | DRxA c => if b then E else E ++ [c]
   | DRxB c => if b then E ++ [c] else E
   | _ => E end) = (match po with Some (PEnq a) => E ++ [a] | _ => E end)
  /\ (match o with
      | DRead off => if (w8 off =? chan_base b + 15) && bset (stat (port_of b d)) STS_RXR
                     then D ++ [read_val off d] else D
      | _ => D end)
     = (match po with
        | Some PRead => if bset (stat (port_of b d)) STS_RXR
                        then D ++ olist (fst (rx_read_char (port_of b d))) else D
        | _ => D end)
  /\ dev_no_lb b o = (match po with Some q => no_lb_op q | None => true end).
Proof.
  intros I. destruct o; cbn [chan_op dev_no_lb]; cbv zeta; try (destruct b; repeat split; reflexivity).
  - pose proof (read_val_rhr b off d I) as R. revert R. generalize (w8 off). intros x R.
    destruct (Z.eqb_spec x (chan_base b + 3)) as [->|]; [other_regs; repeat split; reflexivity|].
    destruct (Z.eqb_spec x (chan_base b + 15)) as [E15|]; cbn [andb]; [|repeat split; reflexivity].
    destruct (bset _ STS_RXR) eqn:Rx; [rewrite (R E15 eq_refl)|]; repeat split; reflexivity.
  - destruct (w8 off =? chan_base b + 3); [repeat split; reflexivity|].
    destruct (w8 off =? chan_base b + 7), (w8 off =? chan_base b + 11), (w8 off =? chan_base b + 15); repeat split; reflexivity.
Qed.

Definition dev_tx_ok (b : bool) (d : duart) (o : dop) : bool :=
  match o with
  | DWrite off v =>
    let off := w8 off in let v := w8 v in
    if off =? chan_base b + 3 then negb (Z.land v 192 =? 128)
    else if off =? chan_base b + 11 then negb (is_reset_tx v)
    else if off =? chan_base b + 15 then bset (stat (port_of b d)) STS_TXR
    else true
  | _ => true
  end.

(* ghost run: W = bytes the guest wrote to this channel's transmit register (while TxRDY), Q = bytes the host's
   polls of this channel returned *)
Fixpoint dtx_run (b : bool) (ops : list dop) (d : duart) (W Q : list Z) : option (duart * list Z * list Z) :=
  match ops with
  | [] => Some (d, W, Q)
  | o :: t =>
    if dev_tx_ok b d o then
      let W' := match o with
                | DWrite off v => if w8 off =? chan_base b + 15 then W ++ [w8 v] else W
                | _ => W end in
      let Q' := match o with
                | DTxA => if b then Q else Q ++ olist (fst (duart_rs232_tx d))
                | DTxB => if b then Q ++ olist (fst (duart_keyboard_tx d)) else Q
                | _ => Q end in
      dtx_run b t (dstep o d) W' Q'
    else None
  end.

Lemma dtx_ghost b o d W Q :
  let po := chan_op b o d in
  (match o with
   | DWrite off v => if w8 off =? chan_base b + 15 then W ++ [w8 v] else W
   | _ => W end) = (match po with Some (PWriteThr a) => W ++ [a] | _ => W end)
  /\ (match o with
      | DTxA => if b then Q else Q ++ olist (fst (duart_rs232_tx d))
      | DTxB => if b then Q ++ olist (fst (duart_keyboard_tx d)) else Q
      | _ => Q end)
     = (match po with Some PPoll => Q ++ olist (fst (host_poll (port_of b d))) | _ => Q end)
  /\ dev_tx_ok b d o = (match po with Some q => tx_ok_op (port_of b d) q | None => true end).
Proof.
  destruct o; cbn [chan_op dev_tx_ok]; cbv zeta; try (destruct b; repeat split; reflexivity).
  - destruct (w8 off =? chan_base b + 3), (w8 off =? chan_base b + 15); repeat split; reflexivity.
  - generalize (w8 off). intros x.
    destruct (Z.eqb_spec x (chan_base b + 3)) as [->|]; [other_regs; repeat split; reflexivity|].
    destruct (Z.eqb_spec x (chan_base b + 7)) as [->|]; [other_regs; repeat split; reflexivity|].
    destruct (Z.eqb_spec x (chan_base b + 11)) as [->|]; [other_regs; repeat split; reflexivity|].
    destruct (x =? chan_base b + 15); repeat split; reflexivity.
  - unfold duart_rs232_tx. destruct b; cbn; destruct (host_poll (pa d)); repeat split; reflexivity.
  - unfold duart_keyboard_tx. destruct b; cbn; destruct (host_poll (pb d)); repeat split; reflexivity.
Qed.

(* the premises are satisfiable and the runs are not trivial: a concrete history on each channel *)
Example device_runs_nontrivial :
  (let '(_, E, D) := drx_run false [DWrite 11 1; DRxA 65; DRxA 66; DSvc 2000000; DSvc 4000000; DRead 15; DRxB 9; DRead 15]
                               (duart_new 0) [] [] in (E, D)) = ([65; 66], [65; 66])
  /\ (match dtx_run true [DWrite 43 4; DWrite 47 65; DSvc 2000000; DSvc 4000000; DMouseDown 1; DTxB]
                    (duart_new 0) [] [] with Some (_, W, Q) => Some (W, Q) | None => None end) = Some ([65], [65]).
Proof. vm_compute. split; reflexivity. Qed.
