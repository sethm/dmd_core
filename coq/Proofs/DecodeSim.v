(* C04: decoding depends on nothing but the bytes at the program counter.  Here: the decoder on two byte sources
   that agree on offsets 0..31 (simulation), and the machine's instruction fetches from RAM as functions of the bytes
   there; Props/C04.v puts them together against the list of the 36 bytes at the PC (the decoder's fetchers take
   offsets up to 31, and a fetch reads up to four bytes, aligned or not). *)
From Coq Require Import ZArith Lia Bool List ZifyBool.
From Dmd Require Import Model.Bits Model.Types Model.Mem Model.Bus Model.Decode Model.Cpu.
From Dmd Require Import Proofs.BusProofs Proofs.MemProofs Proofs.DecodeProofs Proofs.RegKit Proofs.MachKit.
Import ListNotations.
Open Scope Z_scope.

Section Sim.
Variables S1 S2 : Type.
Variable f1 f2 f4 : Z -> S1 -> res S1 Z.
Variable g1 g2 g4 : Z -> S2 -> res S2 Z.
Variable Rel : S1 -> S2 -> Prop.

Definition fsim (hi : Z) (f : Z -> S1 -> res S1 Z) (g : Z -> S2 -> res S2 Z) : Prop :=
  forall off s t, 0 <= off <= hi -> Rel s t ->
    match f off s, g off t with
    | Ok v s', Ok w t' => v = w /\ Rel s' t'
    | Err e s', Err e' t' => e = e' /\ Rel s' t'
    | _, _ => False
    end.
Hypothesis F1 : fsim 31 f1 g1.
Hypothesis F2 : fsim 30 f2 g2.
Hypothesis F4 : fsim 28 f4 g4.

Definition isim (r1 : res S1 instr) (r2 : res S2 instr) : Prop :=
  match r1, r2 with
  | Ok i s, Ok j t => i = j /\ Rel s t
  | Err e s, Err e' t => e = e' /\ Rel s t
  | _, _ => False
  end.

Hypothesis byte_range : forall off t, match g1 off t with Ok v _ => 0 <= v < 256 | _ => True end.

Lemma fsim_rel hi f g : fsim hi f g -> fetch_rel S1 S2 Rel (fun _ => True) hi f g.
Proof. intros F off s t Ho R. specialize (F off s t Ho R). destruct (f off s), (g off t); cbn; tauto. Qed.

Theorem decode_instruction_sim s t : Rel s t ->
  isim (decode_instruction S1 f1 f2 f4 s) (decode_instruction S2 g1 g2 g4 t).
Proof using F1 F2 F4 byte_range.
  intros R.
  pose proof (decode_instruction_rel S1 S2 f1 f2 f4 g1 g2 g4 Rel _ _ _ (fsim_rel _ _ _ F1) (fsim_rel _ _ _ F2)
                (fsim_rel _ _ _ F4) s t R) as K.
  unfold isim. destruct (decode_instruction S1 f1 f2 f4 s), (decode_instruction S2 g1 g2 g4 t); cbn in K; tauto.
Qed.
End Sim.

Definition code_bytes (m : mach) (n : nat) : list Z :=
  map (fun k => ramb m (R m R_PC + Z.of_nat k)) (seq 0 n).

Lemma byte_at_code m n off : 0 <= off < Z.of_nat n -> byte_at (code_bytes m n) off = Some (ramb m (R m R_PC + off)).
Proof.
  intros H. unfold byte_at. replace (off <? 0) with false by lia. unfold code_bytes.
  rewrite nth_error_map. rewrite (nth_error_nth' (seq 0 n) 0%nat) by (rewrite seq_length; lia).
  rewrite seq_nth by lia. cbn [option_map Nat.add]. f_equal. f_equal. lia.
Qed.

Lemma dev_read_byte_ram b a : bus_wf b -> RAMB <= a < RAME ->
  dev_read_byte DRam a b = Ok (mget (ram b) (a - RAMB)) b.
Proof.
  intros W H. cbn [dev_read_byte dev_mem]. destruct W as [_ _ _ [Rb [Rs Rr]]].
  unfold mem_read_byte, mend, lift_r. rewrite Rb, Rs. unfold RAMB, RAME in *.
  replace (a >=? 7340032 + 1048576) with false by lia.
  replace (in_vec (ram b) (a - 7340032)) with true by (symmetry; apply in_vec_spec; lia). reflexivity.
Qed.

Lemma fetch1_ram m off : bus_wf (mbus m) -> RAMB <= R m R_PC + off < RAME ->
  fetch1 off m = Ok (ramb m (R m R_PC + off)) m.
Proof.
  intros W H. unfold fetch1, rd_byte, liftb, bus_read_byte, with_dev.
  rewrite (get_device_ram _ H). rewrite (dev_read_byte_ram _ _ W H). now rewrite with_bus_eta.
Qed.
Lemma fetch2_ram m off : bus_wf (mbus m) -> RAMB <= R m R_PC + off -> R m R_PC + off + 1 < RAME ->
  fetch2 off m = Ok (ramb m (R m R_PC + off) + ramb m (R m R_PC + off + 1) * 256) m.
Proof.
  intros W H H2. unfold fetch2, liftb, bus_read_op_half, with_dev.
  assert (A0 : RAMB <= R m R_PC + off < RAME) by lia. assert (A1 : RAMB <= R m R_PC + off + 1 < RAME) by lia.
  rewrite (get_device_ram _ A0).
  rewrite (dev_read_byte_ram _ _ W A0). cbn [bind].
  rewrite (dev_read_byte_ram _ _ W A1). cbn [bind]. now rewrite with_bus_eta.
Qed.
Lemma fetch4_ram m off : bus_wf (mbus m) -> RAMB <= R m R_PC + off -> R m R_PC + off + 3 < RAME ->
  fetch4 off m = Ok (ramb m (R m R_PC + off) + ramb m (R m R_PC + off + 1) * 256
                     + ramb m (R m R_PC + off + 2) * 65536 + ramb m (R m R_PC + off + 3) * 16777216) m.
Proof.
  intros W H H2. unfold fetch4, liftb, bus_read_op_word, with_dev.
  assert (A0 : RAMB <= R m R_PC + off < RAME) by lia. assert (A1 : RAMB <= R m R_PC + off + 1 < RAME) by lia.
  assert (A2 : RAMB <= R m R_PC + off + 2 < RAME) by lia. assert (A3 : RAMB <= R m R_PC + off + 3 < RAME) by lia.
  rewrite (get_device_ram _ A0).
  rewrite (dev_read_byte_ram _ _ W A0). cbn [bind].
  rewrite (dev_read_byte_ram _ _ W A1). cbn [bind].
  rewrite (dev_read_byte_ram _ _ W A2). cbn [bind].
  rewrite (dev_read_byte_ram _ _ W A3). cbn [bind]. now rewrite with_bus_eta.
Qed.

Definition same_decode (r1 : res mach instr) (m : mach) (r2 : res unit instr) : Prop :=
  match r1, r2 with
  | Ok i m', Ok j _ => i = j /\ m' = m
  | Err e m', Err e' _ => e = e' /\ m' = m
  | _, _ => False
  end.
