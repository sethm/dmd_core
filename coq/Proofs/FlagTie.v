(* The condition-code getters of the model (`flag` at F_C, F_V, F_Z, F_N) against the bodies of Cpu::{c,v,z,n}_flag
   translated from /repo/src/cpu.rs on every run (Gen/GenFlags.v); C02 and C05 use it.  The setters are compared in
   Props/C02.v. *)
From Coq Require Import ZArith Lia Bool.
From Dmd Require Import Model.Bits Model.Cpu Gen.GenConsts Gen.GenFlags.
From Dmd Require Import Proofs.BitsLemmas Proofs.BitKit.
Open Scope Z_scope.

(* the getters' `(psw & F) >> O == 1` is the PSW bit *)
Lemma shifted_bit x k : 0 <= k -> (Z.shiftr (Z.land x (2 ^ k)) k =? 1) = Z.testbit x k.
Proof.
  intros Hk. rewrite Z.shiftr_land, (Z.shiftr_div_pow2 (2 ^ k)) by exact Hk.
  rewrite Z.div_same by (apply Z.pow_nonzero; lia).
  change 1 with (Z.ones 1) at 1. rewrite Z.land_ones, Z.shiftr_div_pow2 by lia. change (2 ^ 1) with 2.
  rewrite <- Z.testbit_spec' by exact Hk. now destruct (Z.testbit x k).
Qed.

Lemma getters_are_source m :
  flag F_C m = g_c_flag m /\ flag F_V m = g_v_flag m /\ flag F_Z m = g_z_flag m /\ flag F_N m = g_n_flag m.
Proof.
  unfold flag, PSW, g_c_flag, g_v_flag, g_z_flag, g_n_flag.
  change g_R_PSW with R_PSW.
  change F_C with (2 ^ 18). change g_F_C with (2 ^ 18). change F_V with (2 ^ 19). change g_F_V with (2 ^ 19).
  change F_Z with (2 ^ 20). change g_F_Z with (2 ^ 20). change F_N with (2 ^ 21). change g_F_N with (2 ^ 21).
  rewrite !bset_pow2 by lia. rewrite !shifted_bit by lia. repeat apply conj; reflexivity.
Qed.
