(* The C interface as a labelled transition system (C19): return codes, output parameters, NVRAM round trip,
   and what every interleaving of atomic calls does to the host queues. *)
From Coq Require Import ZArith Lia Bool List ZifyBool.
From Dmd Require Import Model.Bits Model.Types Model.Fifo Model.Mem Model.Mouse Model.Duart Model.Bus
     Model.Decode Model.Cpu Model.Dmd.
From Dmd Require Import Gen.GenCapi Gen.GenConsts.
From Dmd Require Import Proofs.BitsLemmas Proofs.MemProofs Proofs.BusProofs Proofs.ResetProofs.
Open Scope Z_scope.

Section Capi.
Variable LO1 HI1 LO2 HI2 : list Z.
Notation cstep := (capi_step LO1 HI1 LO2 HI2).

Definition has_out (c : ccall) : bool :=
  match c with
  | CGetPc | CGetReg _ | CReadWord _ | CReadByte _ | CDuartOut | CRs232Tx | CKeyboardTx | CGetNvram | CVideoRam => true
  | _ => false
  end.

Definition is_poll (c : ccall) : bool := match c with CRs232Tx | CKeyboardTx => true | _ => false end.

(* return codes: SUCCESS 0 or ERROR 1; BUSY 2 only from the two transmit polls; video_ram returns a pointer
   (0 here) or null (-1); video_ram_dirty returns the flag; 99 marks a call that unwound (panic under the lock) *)
Lemma capi_return_codes now c g :
  let r := snd (cstep now c g) in
  match c with
  | CVideoRam => crc r = 0 \/ crc r = -1 \/ crc r = 1 \/ crc r = 99
  | CVideoDirty => crc r = 0 \/ crc r = 1
  | CRs232Tx | CKeyboardTx => crc r = 0 \/ crc r = 2 \/ crc r = 1
  | _ => crc r = 0 \/ crc r = 1 \/ crc r = 99
  end.
Proof.
  cbv zeta. destruct g as [m|]; [|destruct c; cbn; auto].
  destruct c; cbn [capi_step snd]; unfold cfin, SUCCESS, ERROR, BUSY; cbn [snd crc];
    repeat match goal with
           | |- context [match ?x with _ => _ end] => destruct x; cbn [snd crc fst]
           | |- context [let (_, _) := ?x in _] => destruct x; cbn [snd crc fst]
           end; auto.
Qed.

Lemma poll_busy_iff_empty now m :
  (crc (snd (cstep now CRs232Tx (GLive m))) = 2 <-> txq (pa (duart_ (mbus m))) = [])
  /\ (crc (snd (cstep now CKeyboardTx (GLive m))) = 2 <-> txq (pb (duart_ (mbus m))) = []).
Proof.
  split; cbn [capi_step]; unfold bus_rs232_tx, bus_keyboard_tx, duart_rs232_tx, duart_keyboard_tx, host_poll, SUCCESS, BUSY;
    [destruct (txq (pa (duart_ (mbus m)))) | destruct (txq (pb (duart_ (mbus m))))]; cbn; split; intros; congruence.
Qed.

Lemma poll_pops_oldest now m c t :
  (txq (pa (duart_ (mbus m))) = c :: t ->
     exists m', cstep now CRs232Tx (GLive m) = (GLive m', mkCres 0 (CoVal c)) /\ txq (pa (duart_ (mbus m'))) = t
                /\ txq (pb (duart_ (mbus m'))) = txq (pb (duart_ (mbus m))) /\ mregs m' = mregs m)
  /\ (txq (pb (duart_ (mbus m))) = c :: t ->
     exists m', cstep now CKeyboardTx (GLive m) = (GLive m', mkCres 0 (CoVal c)) /\ txq (pb (duart_ (mbus m'))) = t
                /\ txq (pa (duart_ (mbus m'))) = txq (pa (duart_ (mbus m))) /\ mregs m' = mregs m).
Proof.
  split; intros E; cbn [capi_step]; unfold bus_rs232_tx, bus_keyboard_tx, duart_rs232_tx, duart_keyboard_tx, host_poll, SUCCESS;
    rewrite E; eexists; (split; [reflexivity|]); cbn; auto.
Qed.

Lemma capi_outparams now c g :
  let r := snd (cstep now c g) in
  has_out c = true -> c <> CVideoRam ->
  (crc r = 0 <-> cout_ r <> CoNone).
Proof.
  cbv zeta. intros Ho Nv. destruct g as [m|].
  - destruct c; cbn in Ho; try discriminate; try congruence; cbn [capi_step snd]; unfold cfin, SUCCESS, ERROR, BUSY;
      repeat match goal with
             | |- context [match ?x with _ => _ end] => destruct x; cbn [snd crc cout_ fst]
             | |- context [let (_, _) := ?x in _] => destruct x; cbn [snd crc cout_ fst]
             end; cbn [snd crc cout_]; split; intros; try congruence; try discriminate; try lia.
  - destruct c; cbn in Ho; try discriminate; try congruence; cbn; unfold ERROR; split; intros; try congruence; lia.
Qed.

Lemma input_appends now m c :
  (exists m', cstep now (CKeyboardRx c) (GLive m) = (GLive m', mkCres 0 CoNone)
      /\ rxq (pb (duart_ (mbus m'))) = rxq (pb (duart_ (mbus m))) ++ [w8 c]
      /\ rxq (pa (duart_ (mbus m'))) = rxq (pa (duart_ (mbus m)))
      /\ txq (pa (duart_ (mbus m'))) = txq (pa (duart_ (mbus m))) /\ txq (pb (duart_ (mbus m'))) = txq (pb (duart_ (mbus m))))
  /\ (exists m', cstep now (CRs232Rx c) (GLive m) = (GLive m', mkCres 0 CoNone)
      /\ rxq (pa (duart_ (mbus m'))) = rxq (pa (duart_ (mbus m))) ++ [w8 c]
      /\ rxq (pb (duart_ (mbus m'))) = rxq (pb (duart_ (mbus m)))
      /\ txq (pa (duart_ (mbus m'))) = txq (pa (duart_ (mbus m))) /\ txq (pb (duart_ (mbus m'))) = txq (pb (duart_ (mbus m)))).
Proof.
  split; eexists; (split; [reflexivity|]); cbn; auto.
Qed.

Lemma nvram_roundtrip now m img :
  bus_wf (mbus m) -> Z.of_nat (length img) = 8192 -> (forall b, In b img -> 0 <= b < 256) ->
  exists m', cstep now (CSetNvram img) (GLive m) = (GLive m', mkCres 0 CoNone)
    /\ cstep now CGetNvram (GLive m') = (GLive m', mkCres 0 (CoBytes img)).
Proof.
  intros W Hl Hb. eexists. split; [reflexivity|]. cbn [capi_step]. unfold SUCCESS. f_equal. f_equal. f_equal.
  cbn [mbus with_bus]. unfold bus_get_nvram, NVRAM_SIZE.
  destruct (set_nvram_from_spec img (Z.to_nat 8192) (bbram (mbus m)) 0 ltac:(lia)) as [_ [_ [_ Hg]]].
  apply nth_ext with (d := 0) (d' := 0).
  - rewrite mem_slice_length. lia.
  - intros n Hn. rewrite mem_slice_length in Hn.
    replace n with (Z.to_nat (Z.of_nat n)) at 1 by lia. rewrite mem_slice_nth_z by lia.
    cbn [bbram bus_set_nvram with_bbram]. unfold NVRAM_SIZE. rewrite Hg by lia.
    replace ((0 <=? 0 + Z.of_nat n) && (0 + Z.of_nat n <? 0 + Z.of_nat (Nat.min (Z.to_nat 8192) (length img)))) with true by lia.
    replace (Z.to_nat (0 + Z.of_nat n - 0)) with n by lia.
    apply w8_id. apply Hb. apply nth_In. lia.
Qed.

(* GPoisoned: a call panicked while holding the lock *)
Lemma poisoned_stays now c :
  fst (cstep now c GPoisoned) = GPoisoned /\ cout_ (snd (cstep now c GPoisoned)) = CoNone.
Proof. destruct c; cbn; auto. Qed.

(* all calls of all threads, in the order the mutex admitted them *)
Fixpoint run_calls (now : Z) (cs : list ccall) (g : gstate) : gstate * list cres :=
  match cs with
  | [] => (g, [])
  | c :: t => let (g1, r) := cstep now c g in let (g2, rs) := run_calls now t g1 in (g2, r :: rs)
  end.

Definition kb_inputs (cs : list ccall) : list Z :=
  flat_map (fun c => match c with CKeyboardRx k => [w8 k] | _ => [] end) cs.
Definition rs_inputs (cs : list ccall) : list Z :=
  flat_map (fun c => match c with CRs232Rx k => [w8 k] | _ => [] end) cs.

Definition no_steps (cs : list ccall) : Prop :=
  forall c, In c cs -> match c with CStep | CStepLoop _ | CInit _ | CReadWord _ | CReadByte _ | CVideoRam => False | _ => True end.

Definition rxq_b (g : gstate) : list Z := match g with GLive m => rxq (pb (duart_ (mbus m))) | GPoisoned => [] end.
Definition rxq_a (g : gstate) : list Z := match g with GLive m => rxq (pa (duart_ (mbus m))) | GPoisoned => [] end.

Lemma call_queue_effect now c m :
  match c with CStep | CStepLoop _ | CInit _ | CReadWord _ | CReadByte _ | CVideoRam => False | _ => True end ->
  exists m', fst (cstep now c (GLive m)) = GLive m'
    /\ rxq (pb (duart_ (mbus m'))) = rxq (pb (duart_ (mbus m))) ++ kb_inputs [c]
    /\ rxq (pa (duart_ (mbus m'))) = rxq (pa (duart_ (mbus m))) ++ rs_inputs [c].
Proof.
  intros H. destruct c; try contradiction; cbn [capi_step fst kb_inputs rs_inputs flat_map app];
    unfold bus_rs232_tx, bus_keyboard_tx, duart_rs232_tx, duart_keyboard_tx, host_poll;
    try (eexists; split; [reflexivity|]; cbn; rewrite ?app_nil_r; split; reflexivity);
    try (eexists; split; [reflexivity|]; cbn [mbus with_bus duart_ bus_mouse_down bus_mouse_up with_duart];
         unfold mouse_down, mouse_up;
         repeat match goal with |- context [if ?c then _ else _] => destruct c end; cbn; rewrite ?app_nil_r; split; reflexivity).
  - destruct (txq (pa (duart_ (mbus m)))); eexists; (split; [reflexivity|]); cbn; rewrite ?app_nil_r; split; reflexivity.
  - destruct (txq (pb (duart_ (mbus m)))); eexists; (split; [reflexivity|]); cbn; rewrite ?app_nil_r; split; reflexivity.
Qed.

Lemma inputs_enter_in_admission_order now cs : forall m, no_steps cs ->
  exists m', fst (run_calls now cs (GLive m)) = GLive m'
    /\ rxq (pb (duart_ (mbus m'))) = rxq (pb (duart_ (mbus m))) ++ kb_inputs cs
    /\ rxq (pa (duart_ (mbus m'))) = rxq (pa (duart_ (mbus m))) ++ rs_inputs cs.
Proof.
  induction cs as [|c t IH]; intros m H.
  - exists m. cbn. rewrite !app_nil_r. auto.
  - destruct (call_queue_effect now c m (H c (or_introl eq_refl))) as [m1 [E1 [Kb Rs]]].
    destruct (IH m1 (fun c' Hc => H c' (or_intror Hc))) as [m2 [E2 [Kb2 Rs2]]].
    exists m2. cbn [run_calls]. destruct (cstep now c (GLive m)) as [g1 r] eqn:Ec. cbn [fst] in E1. subst g1.
    destruct (run_calls now t (GLive m1)) as [g2 rs] eqn:Er. cbn [fst] in *. subst g2.
    split; [reflexivity|]. rewrite Kb2, Kb, Rs2, Rs.
    change (c :: t) with ([c] ++ t). unfold kb_inputs, rs_inputs. rewrite !flat_map_app, !app_assoc. auto.
Qed.

(* a merge of two threads' call lists keeps each thread's own order *)
Inductive merge {A} : list A -> list A -> list A -> Prop :=
| merge_nil : merge [] [] []
| merge_l x l1 l2 l : merge l1 l2 l -> merge (x :: l1) l2 (x :: l)
| merge_r x l1 l2 l : merge l1 l2 l -> merge l1 (x :: l2) (x :: l).

Lemma merge_flat_map {A B} (f : A -> list B) l1 l2 l :
  merge l1 l2 l -> exists pick : list bool, True /\
    length (flat_map f l) = (length (flat_map f l1) + length (flat_map f l2))%nat.
Proof.
  induction 1 as [|x l1 l2 l M IH|x l1 l2 l M IH].
  - exists []. auto.
  - destruct IH as [p [_ E]]. exists p. split; auto. cbn. rewrite !app_length. lia.
  - destruct IH as [p [_ E]]. exists p. split; auto. cbn. rewrite !app_length. lia.
Qed.

Inductive subseq {A} : list A -> list A -> Prop :=
| sub_nil l : subseq [] l
| sub_take x s l : subseq s l -> subseq (x :: s) (x :: l)
| sub_skip x s l : subseq s l -> subseq s (x :: l).

Lemma subseq_app_l {A} (p s l : list A) : subseq s l -> subseq (p ++ s) (p ++ l).
Proof. induction p; cbn; auto. intros. now apply sub_take, IHp. Qed.
Lemma subseq_app_skip {A} (p s l : list A) : subseq s l -> subseq s (p ++ l).
Proof. induction p; cbn; auto. intros. now apply sub_skip, IHp. Qed.

Lemma merge_keeps_thread_order {A B} (f : A -> list B) l1 l2 l :
  merge l1 l2 l -> subseq (flat_map f l1) (flat_map f l) /\ subseq (flat_map f l2) (flat_map f l).
Proof.
  induction 1 as [|x l1 l2 l M [IH1 IH2]|x l1 l2 l M [IH1 IH2]]; cbn.
  - split; constructor.
  - split; [now apply subseq_app_l | now apply subseq_app_skip].
  - split; [now apply subseq_app_skip | now apply subseq_app_l].
Qed.

(* the wrappers in the source: each takes the lock exactly once and calls no other wrapper (no nested locking,
   hence no self-deadlock); translated from dmd.rs on every run *)
Lemma wrappers_lock_once_and_do_not_nest :
  forallb (fun e => match snd e with CS locks nested _ => (locks =? 1)%nat && negb nested end) g_capi = true
  /\ g_capi_count = 19%nat /\ g_capi_poll_shape_ok = true.
Proof. vm_compute. auto. Qed.

End Capi.
