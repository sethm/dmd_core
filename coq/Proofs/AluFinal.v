(* Final machine state of the data-processing arms (C02): destination value and all four condition codes, for
   register destinations and side-effect-free operand reads; the vocabulary the C02 statements are written in
   (`word_outcome`, `memory_mode`, `shift_result`, `unary_result`, `cmp_flags`, `ars_value`); BIT against AND (C18). *)
From Coq Require Import ZArith Lia Bool List ZifyBool.
From Dmd Require Import Model.Bits Model.Types Model.Mem Model.Bus Model.Decode Model.Cpu.
From Dmd Require Import Proofs.BitsLemmas Proofs.BitKit Proofs.RegKit Proofs.OperandProofs Proofs.Arms
     Proofs.FlagKit Proofs.AluProofs.
Open Scope Z_scope.

Definition FN := 2 ^ 21. Definition FZ := 2 ^ 20. Definition FV := 2 ^ 19. Definition FC := 2 ^ 18.
Lemma F_masks : F_N = 2 ^ 21 /\ F_Z = 2 ^ 20 /\ F_V = 2 ^ 19 /\ F_C = 2 ^ 18.
Proof. repeat split. Qed.

Record word_outcome (m m' : mach) (r res : Z) (n z v c : bool) : Prop := {
  wo_dest : R m' r = res;
  wo_n : flag F_N m' = n; wo_z : flag F_Z m' = z; wo_v : flag F_V m' = v; wo_c : flag F_C m' = c;
  wo_regs : forall i, 0 <= i <= 15 -> i <> r -> i <> 11 -> R m' i = R m i;
  wo_bus : mbus m' = mbus m }.

Lemma reg_outcome m r x n z v c : 0 <= r <= 15 -> r <> 11 ->
  word_outcome m (set_v v (set_c c (set_z z (set_n n (setR m r x))))) r x n z v c.
Proof.
  intros Hr N. destruct (nzvc_after n z v c (setR m r x)) as (A & B & C & D).
  split; try assumption; try reflexivity.
  - rewrite R_flags_other by lia. apply R_setR_same.
  - intros i Hi N1 N2. rewrite R_flags_other by lia. apply R_setR_other; lia.
Qed.

Lemma cc_outcome m n z v c :
  let m' := set_v v (set_c c (set_z z (set_n n m))) in
  flag F_Z m' = z /\ flag F_N m' = n /\ flag F_C m' = c /\ flag F_V m' = v
  /\ (forall i, 0 <= i <= 15 -> i <> 11 -> R m' i = R m i) /\ mbus m' = mbus m.
Proof.
  cbv zeta. destruct (nzvc_after n z v c m) as (A & B & C & D). repeat split; try assumption.
  intros i Hi N. now apply R_flags_other.
Qed.

Definition sign_bit (t : dtype) : Z :=
  match t with DWord | DUWord => 31 | DHalf | DUHalf => 15 | _ => 7 end.
Definition trunc_to (t : dtype) (v : Z) : Z :=
  match t with DWord | DUWord => v | DHalf | DUHalf => w16 v | _ => w8 v end.
Definition too_big (t : dtype) (v : Z) : bool :=
  match t with DWord | DUWord => false | DHalf | DUHalf => v >? 65535 | _ => v >? 255 end.

Lemma bset_31 x : bset x 2147483648 = Z.testbit x 31.
Proof. exact (bset_pow2 x 31 ltac:(lia)). Qed.
Lemma bset_15 x : bset x 32768 = Z.testbit x 15.
Proof. exact (bset_pow2 x 15 ltac:(lia)). Qed.

Lemma set_nz_flags_sized val o m : otype o <> DNone ->
  set_nz_flags val o m = set_z (trunc_to (otype o) val =? 0) (set_n (Z.testbit val (sign_bit (otype o))) m).
Proof.
  intros N. unfold set_nz_flags, trunc_to, sign_bit.
  destruct (otype o); try congruence; rewrite ?bset_31, ?bset_15, ?bset_128; reflexivity.
Qed.
Lemma set_v_flag_op_sized val o m : otype o <> DNone ->
  set_v_flag_op val o m = set_v (too_big (otype o) val) m.
Proof. intros N. unfold set_v_flag_op, too_big. destruct (otype o); try congruence; reflexivity. Qed.

(* The common tail of the arms: store x in a register destination, N and Z from x at the destination's size,
   C := cf, V := vf (put_reg) or V by size (put_reg_vop). *)
Section Put.
Variables (ir : instr) (dst r x : Z) (cf : bool) (len : Z) (m : mach).
Hypothesis Hm : omode (get_op ir dst) = MRegister.
Hypothesis Hr : oreg (get_op ir dst) = Some r.
Hypothesis Hr10 : 0 <= r <= 10.
Hypothesis Ht : otype (get_op ir dst) <> DNone.
Let o := get_op ir dst.
Let t := otype o.

Lemma put_reg vf :
  exists m', bind (write_op ir dst x m) (fun _ m0 => @Ok mach Z len (set_v vf (set_c cf (set_nz_flags x o m0)))) = Ok len m'
    /\ word_outcome m m' r x (Z.testbit x (sign_bit t)) (trunc_to t x =? 0) vf cf.
Proof.
  rewrite (write_register ir dst x m r Hm Hr). cbn [bind]. eexists. split; [reflexivity|].
  unfold o. rewrite set_nz_flags_sized by exact Ht. apply reg_outcome; lia.
Qed.

Lemma put_reg_vop :
  exists m', bind (write_op ir dst x m) (fun _ m0 => @Ok mach Z len (set_v_flag_op x o (set_c cf (set_nz_flags x o m0)))) = Ok len m'
    /\ word_outcome m m' r x (Z.testbit x (sign_bit t)) (trunc_to t x =? 0) (too_big t x) cf.
Proof.
  rewrite (write_register ir dst x m r Hm Hr). cbn [bind]. eexists. split; [reflexivity|].
  unfold o. rewrite set_v_flag_op_sized, set_nz_flags_sized by exact Ht. apply reg_outcome; lia.
Qed.
End Put.

(* alu_std (AND / OR / XOR / MUL / ALS): V = the 32-bit result exceeds the largest unsigned value of the operand size *)
Lemma alu_std_sized_final ir f dst r m a b :
  read_op ir 0 m = Ok a m -> read_op ir 1 m = Ok b m ->
  omode (get_op ir dst) = MRegister -> oreg (get_op ir dst) = Some r -> 0 <= r <= 10 ->
  otype (get_op ir dst) <> DNone ->
  let t := otype (get_op ir dst) in
  exists m', alu_std ir f dst m = Ok (ilen ir) m'
    /\ word_outcome m m' r (f a b) (Z.testbit (f a b) (sign_bit t)) (trunc_to t (f a b) =? 0) (too_big t (f a b)) false.
Proof.
  intros R0 R1 Hm Hr Hr10 Ht t. unfold alu_std. rewrite R0; cbn [bind]. rewrite R1; cbn [bind].
  now apply put_reg_vop.
Qed.

(* all sizes of AND / OR / XOR / MUL, two- and three-operand *)
Definition std_arm (opc : Z) : option ((Z -> Z -> Z) * Z) :=
  let one l := existsb (Z.eqb opc) l in
  if one [184; 186; 187] then Some (Z.land, 1) else if one [248; 250; 251] then Some (Z.land, 2)
  else if one [176; 178; 179] then Some (Z.lor, 1) else if one [240; 242; 243] then Some (Z.lor, 2)
  else if one [180; 182; 183] then Some (Z.lxor, 1) else if one [244; 246; 247] then Some (Z.lxor, 2)
  else if one [168; 170; 171] then Some ((fun a b => w32 (a * b)), 1)
  else if one [232; 234; 235] then Some ((fun a b => w32 (a * b)), 2)
  else None.

(* the word forms only *)
Definition std_word_arm (opc : Z) : option ((Z -> Z -> Z) * Z) :=
  if opc =? 184 then Some (Z.land, 1) else if opc =? 248 then Some (Z.land, 2)
  else if opc =? 176 then Some (Z.lor, 1) else if opc =? 240 then Some (Z.lor, 2)
  else if opc =? 180 then Some (Z.lxor, 1) else if opc =? 244 then Some (Z.lxor, 2)
  else if opc =? 168 then Some ((fun a b => w32 (a * b)), 1) else if opc =? 232 then Some ((fun a b => w32 (a * b)), 2)
  else None.

Lemma std_arm_exec ir m f dst : std_arm (iopcode ir) = Some (f, dst) -> exec ir m = alu_std ir f dst m.
Proof.
  unfold std_arm. cbv zeta. intros H.
  repeat match type of H with
  | (if ?c then _ else _) = _ => let E := fresh "E" in destruct c eqn:E; [cbn [existsb] in E|clear E]
  end; try discriminate; injection H as <- <-.
  - apply exec_and; lia. - apply exec_and; lia. - apply exec_or; lia. - apply exec_or; lia.
  - apply exec_xor; lia. - apply exec_xor; lia. - apply exec_mul; lia. - apply exec_mul; lia.
Qed.

Lemma std_word_arm_std opc p : std_word_arm opc = Some p -> std_arm opc = Some p.
Proof.
  unfold std_word_arm. intros H.
  repeat match type of H with
  | (if ?c then _ else _) = _ => let E := fresh "E" in destruct c eqn:E; [apply Z.eqb_eq in E; subst opc; exact H|clear E]
  end. discriminate.
Qed.

Definition reg_word (ir : instr) (k r : Z) : Prop :=
  omode (get_op ir k) = MRegister /\ oreg (get_op ir k) = Some r
  /\ otype (get_op ir k) = DWord /\ oetype (get_op ir k) = None.

Lemma read_reg_word ir k r m : reg_word ir k r -> read_op ir k m = Ok (R m r) m.
Proof.
  intros [Hm [Hr [Ht He]]]. rewrite (read_register_extension ir k m r Hm Hr). unfold data_type. now rewrite He, Ht.
Qed.

Definition word (v : Z) : Prop := 0 <= v < 4294967296.

Definition carry_max (t : dtype) : Z :=
  match t with DWord | DUWord => 4294967295 | DHalf | DUHalf => 65535 | _ => 255 end.

Lemma add_op_final ir a b dst r m :
  omode (get_op ir dst) = MRegister -> oreg (get_op ir dst) = Some r -> 0 <= r <= 10 ->
  oetype (get_op ir dst) = None -> otype (get_op ir dst) <> DNone ->
  let t := otype (get_op ir dst) in
  let res := w32 (a + b) in
  exists m', add_op ir a b dst m = Ok tt m'
    /\ word_outcome m m' r res (Z.testbit res (sign_bit t)) (trunc_to t res =? 0)
         (Z.testbit (Z.land (Z.lxor a (not32 b)) (Z.lxor a res)) (sign_bit t)) (a + b >? carry_max t).
Proof.
  intros Hm Hr Hr10 He Ht t res. unfold add_op. cbv zeta.
  rewrite (write_register ir dst _ m r Hm Hr). cbn [bind]. unfold data_type. rewrite He.
  rewrite set_nz_flags_sized by exact Ht. subst t. fold res.
  destruct (otype (get_op ir dst)); try congruence; cbn [sign_bit carry_max]; rewrite ?bset_31, ?bset_15, ?bset_128;
    (eexists; split; [reflexivity | apply reg_outcome; lia]).
Qed.

Lemma sub_op_sized_final ir a b dst r m :
  omode (get_op ir dst) = MRegister -> oreg (get_op ir dst) = Some r -> 0 <= r <= 10 ->
  otype (get_op ir dst) <> DNone ->
  let t := otype (get_op ir dst) in
  let res := w32 (a - b) in
  exists m', sub_op ir a b dst m = Ok tt m'
    /\ word_outcome m m' r res (Z.testbit res (sign_bit t)) (trunc_to t res =? 0) (too_big t res) (a <? b).
Proof.
  intros Hm Hr Hr10 Ht t res. unfold sub_op. cbv zeta.
  rewrite (write_register ir dst _ m r Hm Hr). cbn [bind]. eexists. split; [reflexivity|].
  rewrite set_nz_flags_sized, set_v_flag_op_sized by exact Ht. replace (b >? a) with (a <? b) by lia.
  apply reg_outcome; lia.
Qed.

Lemma add_word_final ir m dst rs rt rd :
  exec ir m = add_arm ir dst m ->
  reg_word ir 0 rs -> reg_word ir 1 rt -> reg_word ir dst rd -> 0 <= rd <= 10 -> word (R m rs) -> word (R m rt) ->
  let a := R m rs in let b := R m rt in
  exists m', exec ir m = Ok (ilen ir) m'
    /\ word_outcome m m' rd ((a + b) mod 2 ^ 32) (Z.testbit ((a + b) mod 2 ^ 32) 31) ((a + b) mod 2 ^ 32 =? 0)
         (negb ((-2147483648 <=? s32 a + s32 b) && (s32 a + s32 b <? 2147483648))) (2 ^ 32 <=? a + b).
Proof.
  intros E S T [Dm [Dr [Dt De]]] Hd Wa Wb a b. subst a b. rewrite E. unfold add_arm. rewrite (read_reg_word ir 0 rs m S). cbn [bind].
  rewrite (read_reg_word ir 1 rt m T). cbn [bind].
  destruct (add_op_final ir (R m rs) (R m rt) dst rd m Dm Dr Hd De) as [m' [E' O]]; [rewrite Dt; discriminate|].
  rewrite Dt in O. cbn [sign_bit trunc_to carry_max] in O.
  (* at word size the overflow test is the signed one *)
  rewrite <- (bset_31 (Z.land _ _)), add_overflow_word in O by assumption.
  replace (_ >? 4294967295) with (2 ^ 32 <=? R m rs + R m rt) in O by lia.
  exists m'. rewrite E'. auto.
Qed.

Lemma sub_word_final ir m dst rs rt rd :
  exec ir m = sub_arm ir dst m ->
  reg_word ir 0 rs -> reg_word ir 1 rt -> reg_word ir dst rd -> 0 <= rd <= 10 ->
  let a := R m rt in let b := R m rs in
  exists m', exec ir m = Ok (ilen ir) m'
    /\ R m' rd = (a - b) mod 2 ^ 32
    /\ flag F_N m' = Z.testbit ((a - b) mod 2 ^ 32) 31 /\ flag F_Z m' = ((a - b) mod 2 ^ 32 =? 0)
    /\ flag F_C m' = (a <? b) /\ flag F_V m' = false
    /\ (forall i, 0 <= i <= 15 -> i <> rd -> i <> 11 -> R m' i = R m i) /\ mbus m' = mbus m.
Proof.
  intros E S T [Dm [Dr [Dt _]]] Hd a b. subst a b. rewrite E. unfold sub_arm. rewrite (read_reg_word ir 1 rt m T). cbn [bind].
  rewrite (read_reg_word ir 0 rs m S). cbn [bind].
  destruct (sub_op_sized_final ir (R m rt) (R m rs) dst rd m Dm Dr Hd) as [m' [E' O]]; [rewrite Dt; discriminate|].
  rewrite Dt in O. destruct O. exists m'. rewrite E'. repeat split; assumption.
Qed.

Definition memory_mode (md : addrmode) : Prop :=
  match md with MRegister | MPosLit | MNegLit | MWordImm | MHalfImm | MByteImm => False | _ => True end.

Definition shift_result (opc cnt v : Z) : option Z :=
  let n := Z.land cnt 31 in
  if opc =? 208 then Some (w32 (Z.shiftl v n))            (* LLSW3 *)
  else if opc =? 212 then Some (Z.shiftr v n)              (* LRSW3 *)
  else if opc =? 216 then Some (rotr32 v n)                (* ROTW  *)
  else None.

Definition unary_result (opc a : Z) : option Z :=
  if (opc =? 132) || (opc =? 134) || (opc =? 135) then Some a                       (* MOVW / MOVH / MOVB *)
  else if (opc =? 136) || (opc =? 138) || (opc =? 139) then Some (not32 a)           (* MCOMW / H / B *)
  else if (opc =? 140) || (opc =? 142) || (opc =? 143) then Some (w32 (not32 a + 1)) (* MNEGW / H / B *)
  else None.

Lemma unary_arm_final ir f m a r :
  read_op ir 0 m = Ok a m ->
  omode (get_op ir 1) = MRegister -> oreg (get_op ir 1) = Some r -> 0 <= r <= 10 -> otype (get_op ir 1) <> DNone ->
  let t := otype (get_op ir 1) in
  exists m', unary_arm ir f m = Ok (ilen ir) m'
    /\ word_outcome m m' r (f a) (Z.testbit (f a) (sign_bit t)) (trunc_to t (f a) =? 0) (too_big t (f a)) false.
Proof. intros R0 Hm Hr Hr10 Ht t. unfold unary_arm. rewrite R0. cbn [bind]. now apply put_reg_vop. Qed.

(* CMPH / CMPB: the condition codes from the two operands as read *)
Definition cmp_flags (opc a b : Z) : option (bool * bool * bool) :=     (* Z, N, C *)
  if opc =? 62 then Some (w16 b =? w16 a, s16 b <? s16 a, w16 b <? w16 a)
  else if opc =? 63 then Some (w8 b =? w8 a, s8 b <? s8 a, w8 b <? w8 a)
  else None.

(* ARSW3 / ARSH3 / ARSB3: the value shifted is the source taken at the type of operand 0 (cpu.rs, ARS arm) *)
Definition ars_value (t : dtype) (a n : Z) : Z :=
  match t with
  | DWord => w32 (Z.shiftr (s32 a) n) | DUWord => Z.shiftr a n
  | DHalf => w32 (Z.shiftr (s16 a) n) | DUHalf => Z.shiftr (w16 a) n
  | DByte => Z.shiftr (w8 a) n | DSByte => w32 (Z.shiftr (s8 a) n)
  | DNone => 0
  end.

Lemma exec_ars ir m : iopcode ir = 196 \/ iopcode ir = 198 \/ iopcode ir = 199 ->
  exec ir m = bind (read_op ir 1 m) (fun a m => bind (read_op ir 0 m) (fun b0 m =>
    let result := ars_value (data_type (op0 ir)) a (Z.land b0 31) in
    bind (write_op ir 2 result m) (fun _ m =>
      Ok (ilen ir) (set_v false (set_c false (set_nz_flags result (op2 ir) m)))))).
Proof. arm_eq ir. Qed.

(* BIT sets the N and Z (and clears C) that the AND of the same operands sets *)
Theorem bit_and_same_nz irb ira m a b r :
  (iopcode irb = 56 \/ iopcode irb = 58 \/ iopcode irb = 59) ->
  (iopcode ira = 248 \/ iopcode ira = 250 \/ iopcode ira = 251) ->
  read_op irb 0 m = Ok a m -> read_op irb 1 m = Ok b m -> read_op ira 0 m = Ok a m -> read_op ira 1 m = Ok b m ->
  omode (get_op ira 2) = MRegister -> oreg (get_op ira 2) = Some r -> 0 <= r <= 10 ->
  otype (op1 irb) = otype (get_op ira 2) -> otype (get_op ira 2) <> DNone ->
  exists mb ma, exec irb m = Ok (ilen irb) mb /\ exec ira m = Ok (ilen ira) ma
    /\ flag F_N mb = flag F_N ma /\ flag F_Z mb = flag F_Z ma /\ flag F_C mb = false /\ flag F_C ma = false
    /\ (forall i, 0 <= i <= 15 -> i <> 11 -> R mb i = R m i).
Proof.
  intros Hb Ha B0 B1 A0 A1 Hm Hr Hr10 Et Nn.
  rewrite (exec_bit irb m Hb), B0. cbn [bind]. rewrite B1. cbn [bind].
  destruct (alu_std_sized_final ira Z.land 2 r m a b A0 A1 Hm Hr Hr10 Nn) as [ma [Ea [_ On Oz _ Oc _ _]]].
  rewrite (proj2 (exec_and ira m) Ha), Ea. eexists. exists ma. split; [reflexivity|]. split; [reflexivity|].
  rewrite On, Oz, Oc, set_nz_flags_sized, Et by (rewrite Et; exact Nn).
  destruct (cc_outcome m (Z.testbit (Z.land a b) (sign_bit (otype (get_op ira 2))))
              (trunc_to (otype (get_op ira 2)) (Z.land a b) =? 0) false false) as (Fz & Fn & Fc & _ & Ro & _).
  auto.
Qed.
