(* DUART-level invariant, the command interpreter by stages, and the interrupt poll in closed form (C14, C17, C20). *)
From Coq Require Import ZArith Lia Bool List.
From Dmd Require Import Model.Bits Model.Mem Model.Duart.
From Dmd Require Import Proofs.BitKit Proofs.PortProofs.
Open Scope Z_scope.

Local Arguments bset : simpl never.
Local Arguments clr8 : simpl never.
Local Arguments Z.lor : simpl never.
Local Arguments Z.land : simpl never.
Local Arguments Z.gtb : simpl never.

Definition DInv (d : duart) : Prop := PInv (pa d) /\ PInv (pb d).

Inductive dop :=
| DRead (off : Z) | DWrite (off v : Z) | DSvc (tm : Z) | DGetInt (tm : Z)
| DRxA (c : Z) | DRxB (c : Z) | DTxA | DTxB | DMouseDown (b : Z) | DMouseUp (b : Z).

Definition dstep (o : dop) (d : duart) : duart :=
  match o with
  | DRead off => match duart_read_byte off d with ROk (_, d') => d' | _ => d end
  | DWrite off v => duart_write_byte off v d
  | DSvc tm => duart_service tm d
  | DGetInt tm => snd (get_interrupt tm d)
  | DRxA c => duart_rs232_rx d c
  | DRxB c => duart_keyboard_rx d c
  | DTxA => snd (duart_rs232_tx d)
  | DTxB => snd (duart_keyboard_tx d)
  | DMouseDown b => mouse_down d b
  | DMouseUp b => mouse_up d b
  end.

Lemma dinv_new tm : DInv (duart_new tm).
Proof. split; apply pinv_new. Qed.

Notation pstepz := (@pstep Z is02z).

Fixpoint drun (ops : list dop) (d : duart) : duart :=
  match ops with [] => d | o :: t => drun t (dstep o d) end.

Definition opt_bit (c : bool) (m : Z) : Z := if c then m else 0.
Lemma testbit_opt_bit c m k : Z.testbit (opt_bit c m) k = c && Z.testbit m k.
Proof. destruct c; [reflexivity | apply Z.bits_0]. Qed.

Ltac dbits := unfold STS_RXR, STS_FFL, STS_TXR, STS_TXE, STS_OER, STS_PER, STS_FER, STS_RXB,
              ISTS_TAI, ISTS_RAI, ISTS_DBA, ISTS_TBI, ISTS_RBI, ISTS_DBB, ISTS_IPC,
              KEYBOARD_INT, MOUSE_BLANK_INT, TX_INT, RX_INT, CMD_ERX, CMD_DRX, CMD_ETX, CMD_DTX in *;
              bits_norm; rewrite ?testbit_opt_bit in *; bits.

Lemma txrdy_implies_thr_empty d : DInv d ->
  (bset (stat (pa d)) STS_TXR = true -> tx_hold (pa d) = None)
  /\ (bset (stat (pb d)) STS_TXR = true -> tx_hold (pb d) = None).
Proof. intros [Ia Ib]. split; [apply (inv_txr _ Ia) | apply (inv_txr _ Ib)]. Qed.

(* handle_command is the port's command, then three stages that move only the interrupt status and request
   registers (transmitter bits, receiver bits, delta-break) *)
Definition irq_tx (cmd tx_ists : Z) (d : duart) : duart :=
  if bset cmd CMD_DTX then isr_clr (ivec_clr d TX_INT) tx_ists
  else if bset cmd CMD_ETX then isr_set (ivec_set d TX_INT) tx_ists else d.
Definition irq_rx (cmd : Z) (isA : bool) (rx_ists : Z) (d : duart) : duart :=
  if bset cmd CMD_DRX
  then (if isA then isr_clr (ivec_clr (isr_clr d rx_ists) RX_INT) ISTS_RAI
        else isr_clr (ivec_clr (isr_clr d rx_ists) KEYBOARD_INT) ISTS_RBI)
  else d.
Definition irq_x (x : Z) (lb : bool) (dbk : Z) (d : duart) : duart :=
  if x =? 5 then isr_clr d dbk
  else if (x =? 6) || (x =? 7) then (if lb then isr_set d dbk else d)
  else d.

Lemma handle_command_stages cmd n d :
  handle_command cmd n d =
  let isA := n =? 0 in
  let p := if isA then pa d else pb d in
  irq_x (Z.land (Z.shiftr cmd 4) 7) (loopback p) (if isA then ISTS_DBA else ISTS_DBB)
    (irq_rx cmd isA (if isA then ISTS_RAI else ISTS_RBI)
       (irq_tx cmd (if isA then ISTS_TAI else ISTS_TBI)
          (if isA then with_pa d (port_command cmd p) else with_pb d (port_command cmd p)))).
Proof. reflexivity. Qed.

Definition irq_only (d d' : duart) : Prop := d' = with_isr (with_ivec d (ivec d')) (isr d').

Lemma irq_only_trans a b c : irq_only a b -> irq_only b c -> irq_only a c.
Proof. unfold irq_only. intros H1 H2. rewrite H2. rewrite H1 at 1. reflexivity. Qed.
Lemma irq_tx_only c t d : irq_only d (irq_tx c t d).
Proof. unfold irq_tx. destruct (bset c CMD_DTX); [|destruct (bset c CMD_ETX)]; destruct d; reflexivity. Qed.
Lemma irq_rx_only c a r d : irq_only d (irq_rx c a r d).
Proof. unfold irq_rx. destruct (bset c CMD_DRX); [destruct a|]; destruct d; reflexivity. Qed.
Lemma irq_x_only x lb k d : irq_only d (irq_x x lb k d).
Proof. unfold irq_x. destruct (x =? 5); [|destruct (_ || _); [destruct lb|]]; destruct d; reflexivity. Qed.

Lemma ivec_irq_x x lb k d : ivec (irq_x x lb k d) = ivec d.
Proof. unfold irq_x. destruct (x =? 5); [|destruct (_ || _); [destruct lb|]]; reflexivity. Qed.

Lemma handle_command_irq cmd n d :
  irq_only (if n =? 0 then with_pa d (port_command cmd (pa d)) else with_pb d (port_command cmd (pb d)))
           (handle_command cmd n d).
Proof.
  rewrite handle_command_stages. cbv zeta.
  eapply irq_only_trans; [|apply irq_x_only]. eapply irq_only_trans; [|apply irq_rx_only].
  destruct (n =? 0); apply irq_tx_only.
Qed.

Lemma handle_command_ports cmd n d :
  pa (handle_command cmd n d) = (if n =? 0 then port_command cmd (pa d) else pa d)
  /\ pb (handle_command cmd n d) = (if n =? 0 then pb d else port_command cmd (pb d)).
Proof. rewrite (handle_command_irq cmd n d). destruct (n =? 0); split; reflexivity. Qed.

Lemma handle_command_ivec cmd n d :
  ivec (handle_command cmd n d) =
  let v := if bset cmd CMD_DTX then clr8 (ivec d) TX_INT
           else if bset cmd CMD_ETX then Z.lor (ivec d) TX_INT else ivec d in
  if bset cmd CMD_DRX then clr8 v (if n =? 0 then RX_INT else KEYBOARD_INT) else v.
Proof.
  rewrite handle_command_stages. cbv zeta. rewrite ivec_irq_x. unfold irq_rx, irq_tx.
  destruct (n =? 0); destruct (bset cmd CMD_DRX), (bset cmd CMD_DTX); try reflexivity;
    destruct (bset cmd CMD_ETX); reflexivity.
Qed.

(* get_interrupt in closed form: the poll only ever sets request and status bits *)
Definition vb_stage (tm : Z) (d : duart) : duart :=
  if tm >? next_vblank d then vertical_blank (with_next_vblank d (tm + VERTICAL_BLANK_DELAY)) else d.

Lemma vb_stage_spec tm d :
  let vb := tm >? next_vblank d in
  pa (vb_stage tm d) = pa d /\ pb (vb_stage tm d) = pb d
  /\ ivec (vb_stage tm d) = Z.lor (ivec d) (opt_bit vb MOUSE_BLANK_INT)
  /\ isr (vb_stage tm d) = Z.lor (isr d) (opt_bit vb ISTS_IPC)
  /\ next_vblank (vb_stage tm d) = (if vb then tm + VERTICAL_BLANK_DELAY else next_vblank d).
Proof.
  unfold vb_stage, vertical_blank, isr_set, ivec_set. cbv zeta.
  destruct (tm >? next_vblank d); cbn [opt_bit]; [|rewrite !Z.lor_0_r; auto 6].
  cbn. destruct (Z.land _ 4 =? 0); cbn; auto 6.
Qed.

Definition gi_ivec (tm : Z) (d : duart) : Z :=
  Z.lor (Z.lor (Z.lor (opt_bit (tm >? next_vblank d) MOUSE_BLANK_INT) (opt_bit (bset (stat (pa d)) STS_RXR) RX_INT))
               (opt_bit (bset (stat (pb d)) STS_RXR) KEYBOARD_INT))
        (opt_bit (bset (stat (pa d)) STS_TXR) TX_INT).
Definition gi_isr (tm : Z) (d : duart) : Z :=
  Z.lor (Z.lor (Z.lor (opt_bit (tm >? next_vblank d) ISTS_IPC) (opt_bit (bset (stat (pa d)) STS_RXR) ISTS_RAI))
               (opt_bit (bset (stat (pb d)) STS_RXR) ISTS_RBI))
        (opt_bit (bset (stat (pa d)) STS_TXR) ISTS_TAI).

Lemma get_interrupt_spec tm d :
  let d' := snd (get_interrupt tm d) in
  pa d' = pa d /\ pb d' = pb d
  /\ ivec d' = Z.lor (ivec d) (gi_ivec tm d) /\ isr d' = Z.lor (isr d) (gi_isr tm d)
  /\ next_vblank d' = next_vblank (vb_stage tm d)
  /\ fst (get_interrupt tm d) = (if ivec d' =? 0 then None else Some (ivec d')).
Proof.
  unfold get_interrupt, gi_ivec, gi_isr. fold (vb_stage tm d).
  destruct (vb_stage_spec tm d) as (Pa & Pb & Iv & Is & _). rewrite !Z.lor_assoc, <- Iv, <- Is, <- Pa, <- Pb.
  generalize (vb_stage tm d). intros d0.
  destruct (bset (stat (pa d0)) STS_RXR);
    cbn [opt_bit isr_set ivec_set with_isr with_ivec pa pb ivec isr next_vblank fst snd];
    (destruct (bset (stat (pb d0)) STS_RXR);
     cbn [opt_bit isr_set ivec_set with_isr with_ivec pa pb ivec isr next_vblank fst snd];
     (destruct (bset (stat (pa d0)) STS_TXR);
      cbn [opt_bit isr_set ivec_set with_isr with_ivec pa pb ivec isr next_vblank fst snd];
      rewrite ?Z.lor_0_r; repeat split; reflexivity)).
Qed.

Lemma bset_nonzero x m : bset x m = true -> (x =? 0) = false.
Proof. unfold bset. destruct (Z.eqb_spec x 0) as [->|]; [discriminate | reflexivity]. Qed.

Lemma no_lost_wakeup tm d :
  let v := fst (get_interrupt tm d) in
  let d' := snd (get_interrupt tm d) in
  (bset (stat (pa d)) STS_RXR = true ->
     exists val, v = Some val /\ bset val RX_INT = true /\ bset (isr d') ISTS_RAI = true)
  /\ (bset (stat (pb d)) STS_RXR = true ->
     exists val, v = Some val /\ bset val KEYBOARD_INT = true /\ bset (isr d') ISTS_RBI = true)
  /\ (bset (stat (pa d)) STS_TXR = true ->
     exists val, v = Some val /\ bset val TX_INT = true /\ bset (isr d') ISTS_TAI = true)
  /\ pa d' = pa d /\ pb d' = pb d.
Proof.
  destruct (get_interrupt_spec tm d) as (Pa & Pb & Iv & Is & _ & Fv). cbn zeta.
  rewrite Fv, Is. set (iv := ivec (snd (get_interrupt tm d))) in *.
  assert (W : forall m, bset iv m = true -> exists val, (if iv =? 0 then None else Some iv) = Some val /\ bset val m = true)
    by (intros m B; rewrite (bset_nonzero _ _ B); eauto).
  unfold gi_ivec, gi_isr in *.
  repeat split; auto; intros H; rewrite H in *.
  - destruct (W RX_INT) as (val & E & B); [rewrite Iv; dbits|]. exists val. repeat split; auto. dbits.
  - destruct (W KEYBOARD_INT) as (val & E & B); [rewrite Iv; dbits|]. exists val. repeat split; auto. dbits.
  - destruct (W TX_INT) as (val & E & B); [rewrite Iv; dbits|]. exists val. repeat split; auto. dbits.
Qed.

(* a disable-transmitter command withdraws the source: status bit, vector bit and ISR bit are clear afterwards and stay
   clear across the interrupt poll *)
Lemma disable_tx_withdraws_a d cmd tm :
  bset cmd CMD_DTX = true ->
  let d1 := dstep (DWrite 11 cmd) d in
  bset (stat (pa d1)) STS_TXR = false /\ bset (ivec d1) TX_INT = false /\ bset (isr d1) ISTS_TAI = false
  /\ bset (ivec (snd (get_interrupt tm d1))) TX_INT = false
  /\ bset (isr (snd (get_interrupt tm d1))) ISTS_TAI = false.
Proof.
  intros Hc. cbn zeta. change (dstep (DWrite 11 cmd) d) with (handle_command (w8 cmd) 0 d).
  assert (Hw : bset (w8 cmd) CMD_DTX = true) by (rewrite <- Hc; exact (bset_w8 cmd 3 ltac:(lia))).
  generalize dependent (w8 cmd). clear cmd Hc. intros c Hw.
  assert (R : bset (stat (pa (handle_command c 0 d))) STS_TXR = false).
  { rewrite (proj1 (handle_command_ports c 0 d)). cbn [Z.eqb]. apply port_command_dtx, Hw. }
  assert (H1 : bset (ivec (handle_command c 0 d)) TX_INT = false).
  { rewrite handle_command_ivec, Hw. cbv zeta. destruct (bset c CMD_DRX); cbn [Z.eqb]; dbits. }
  assert (H2 : bset (isr (handle_command c 0 d)) ISTS_TAI = false).
  { rewrite handle_command_stages. cbv zeta. cbn [Z.eqb]. unfold irq_x, irq_rx, irq_tx. rewrite Hw.
    destruct (_ =? 5); [|destruct (_ || _); [destruct (loopback _)|]]; destruct (bset c CMD_DRX); cbn; dbits. }
  destruct (get_interrupt_spec tm (handle_command c 0 d)) as (_ & _ & Iv & Is & _).
  rewrite Iv, Is. unfold gi_ivec, gi_isr. rewrite R. repeat split; auto; dbits.
Qed.
