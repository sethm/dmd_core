(* Equivalent instruction forms leave identical machine state (C18). *)
From Coq Require Import ZArith Lia Bool List ZifyBool.
From Dmd Require Import Model.Bits Model.Types Model.Mem Model.Bus Model.Decode Model.Cpu.
From Dmd Require Import Proofs.BitsLemmas Proofs.BitKit Proofs.RegKit Proofs.Arms Proofs.FlagKit.
Open Scope Z_scope.

(* the outcome of an instruction apart from its own length *)
Definition strip {A} (r : res mach A) : res mach unit :=
  match r with Ok _ m => Ok tt m | Err e m => Err e m | Panic => Panic | OutOfFuel => OutOfFuel end.

Lemma bind_strip_ext {A B C} (r : res mach A) (k : A -> mach -> res mach B) (k' : A -> mach -> res mach C) :
  (forall a m, strip (k a m) = strip (k' a m)) -> strip (bind r k) = strip (bind r k').
Proof. intros H. destruct r; cbn; auto. Qed.

(* Operand access depends on the instruction only through the operand slot it names: each access function is,
   by computation, the same function of get_op ir k. *)
Definition at0 (o : operand) : instr := mkInstr 0 0 o o o o.
Lemma effective_address_slot ir k : effective_address ir k = effective_address (at0 (get_op ir k)) 0.
Proof. reflexivity. Qed.
Lemma read_op_slot ir k : read_op ir k = read_op (at0 (get_op ir k)) 0.
Proof. reflexivity. Qed.
Lemma write_op_slot ir k : write_op ir k = write_op (at0 (get_op ir k)) 0.
Proof. reflexivity. Qed.

Lemma read_op_ext ir ir' k k' m : get_op ir k = get_op ir' k' -> read_op ir k m = read_op ir' k' m.
Proof. intros H. now rewrite (read_op_slot ir), (read_op_slot ir'), H. Qed.
Lemma write_op_ext ir ir' k k' v m : get_op ir k = get_op ir' k' -> write_op ir k v m = write_op ir' k' v m.
Proof. intros H. now rewrite (write_op_slot ir), (write_op_slot ir'), H. Qed.

Definition dst_repeated (ir2 ir3 : instr) : Prop :=
  get_op ir3 0 = get_op ir2 0 /\ get_op ir3 1 = get_op ir2 1 /\ get_op ir3 2 = get_op ir2 1.

(* The arm helpers read slots 0 and 1 and write slot d; with the accesses put in slot form and the slots
   identified, two instructions run the same computation up to the length they return. *)
Section ArmExt.
Variables (ir ir' : instr) (d d' : Z).
Hypothesis H0 : get_op ir 0 = get_op ir' 0.
Hypothesis H1 : get_op ir 1 = get_op ir' 1.
Hypothesis Hd : get_op ir d = get_op ir' d'.

Ltac slots := rewrite ?(read_op_slot ir 0), ?(read_op_slot ir 1), ?(write_op_slot ir d), ?H0, ?H1, ?Hd.

Lemma alu_std_ext f m : strip (alu_std ir f d m) = strip (alu_std ir' f d' m).
Proof. unfold alu_std. slots. repeat (apply bind_strip_ext; intros). reflexivity. Qed.

Lemma add_op_ext a b m : add_op ir a b d m = add_op ir' a b d' m.
Proof. unfold add_op. slots. reflexivity. Qed.
Lemma sub_op_ext a b m : sub_op ir a b d m = sub_op ir' a b d' m.
Proof. unfold sub_op. slots. reflexivity. Qed.

Lemma add_arm_ext m : strip (add_arm ir d m) = strip (add_arm ir' d' m).
Proof.
  unfold add_arm. slots. do 2 (apply bind_strip_ext; intros). rewrite add_op_ext.
  apply bind_strip_ext; intros. reflexivity.
Qed.
Lemma sub_arm_ext m : strip (sub_arm ir d m) = strip (sub_arm ir' d' m).
Proof.
  unfold sub_arm. slots. do 2 (apply bind_strip_ext; intros). rewrite sub_op_ext.
  apply bind_strip_ext; intros. reflexivity.
Qed.

Lemma div_arm_ext oa ob m : strip (div_arm ir d oa ob m) = strip (div_arm ir' d' oa ob m).
Proof.
  unfold div_arm. slots. apply bind_strip_ext; intros a m1. apply bind_strip_ext; intros b m2.
  destruct (a =? 0); [reflexivity|]. destruct (div_val _ _ _); [|reflexivity]. apply bind_strip_ext; intros. reflexivity.
Qed.
Lemma mod_arm_ext m : strip (mod_arm ir d m) = strip (mod_arm ir' d' m).
Proof.
  unfold mod_arm. slots. apply bind_strip_ext; intros a m1. apply bind_strip_ext; intros b m2.
  destruct (a =? 0); [reflexivity|]. destruct (mod_val _ _ _); [|reflexivity]. apply bind_strip_ext; intros. reflexivity.
Qed.
End ArmExt.

(* opcode pairs (2-operand, 3-operand) of the eight binary operations at the three sizes *)
Definition op23_pairs : list (Z * Z) :=
  [(156, 220); (158, 222); (159, 223);      (* ADD W H B *)
   (188, 252); (190, 254); (191, 255);      (* SUB *)
   (168, 232); (170, 234); (171, 235);      (* MUL *)
   (172, 236); (174, 238); (175, 239);      (* DIV *)
   (164, 228); (166, 230); (167, 231);      (* MOD *)
   (184, 248); (186, 250); (187, 251);      (* AND *)
   (176, 240); (178, 242); (179, 243);      (* OR *)
   (180, 244); (182, 246); (183, 247)].     (* XOR *)

Lemma add_overflow_symmetric a b k : 0 <= k < 32 ->
  Z.testbit (Z.land (Z.lxor a (not32 b)) (Z.lxor a (w32 (a + b)))) k
  = Z.testbit (Z.land (Z.lxor b (not32 a)) (Z.lxor b (w32 (b + a)))) k.
Proof.
  intros Hk. rewrite !Z.land_spec, !Z.lxor_spec, !not32_testbit by lia.
  replace (b + a) with (a + b) by lia.
  destruct (Z.testbit a k), (Z.testbit b k), (Z.testbit (w32 (a + b)) k); reflexivity.
Qed.

Lemma add_op_comm ir a b d m : add_op ir a b d m = add_op ir b a d m.
Proof.
  unfold add_op. cbv zeta. replace (b + a) with (a + b) by lia.
  destruct (write_op ir d (w32 (a + b)) m); cbn [bind]; try reflexivity.
  change 2147483648 with (2 ^ 31). change 32768 with (2 ^ 15). change 128 with (2 ^ 7).
  rewrite !bset_pow2 by lia.
  rewrite (add_overflow_symmetric a b 31), (add_overflow_symmetric a b 15), (add_overflow_symmetric a b 7) by lia.
  replace (b + a) with (a + b) by lia. reflexivity.
Qed.

(* INC d  =  ADD2 &1, d   and   DEC d  =  SUB2 &1, d *)
Definition literal_one (o : operand) : Prop := omode o = MPosLit /\ oemb o = 1.

Lemma read_literal_one ir k m : literal_one (get_op ir k) -> read_op ir k m = Ok 1 m.
Proof. intros [Hm He]. unfold read_op. cbv zeta. rewrite Hm, He. reflexivity. Qed.

Lemma inc_eq_add1 iri ira m :
  (iopcode iri = 144 /\ iopcode ira = 156) \/ (iopcode iri = 146 /\ iopcode ira = 158) \/ (iopcode iri = 147 /\ iopcode ira = 159) ->
  literal_one (get_op ira 0) -> get_op ira 1 = get_op iri 0 ->
  (forall a m1, read_op iri 0 m = Ok a m1 -> 0 <= a < 4294967296) ->
  strip (exec iri m) = strip (exec ira m).
Proof.
  intros Ho L1 E Hrange.
  rewrite (exec_inc iri m), (proj1 (exec_add ira m)) by tauto. unfold add_arm.
  rewrite (read_literal_one ira 0 m L1). cbn [bind].
  rewrite (read_op_ext ira iri 1 0 m E).
  destruct (read_op iri 0 m) as [a m1|e m1| |] eqn:R0; cbn [bind strip]; try reflexivity.
  rewrite (add_op_ext ira iri 1 0 E). rewrite (add_op_comm iri 1 a 0 m1).
  destruct (add_op iri a 1 0 m1); reflexivity.
Qed.

Lemma dec_eq_sub1 ird irs m :
  (iopcode ird = 148 /\ iopcode irs = 188) \/ (iopcode ird = 150 /\ iopcode irs = 190) \/ (iopcode ird = 151 /\ iopcode irs = 191) ->
  literal_one (get_op irs 0) -> get_op irs 1 = get_op ird 0 ->
  strip (exec ird m) = strip (exec irs m).
Proof.
  intros Ho L1 E.
  rewrite (exec_dec ird m), (proj1 (exec_sub irs m)) by tauto. unfold sub_arm.
  rewrite (read_op_ext irs ird 1 0 m E).
  destruct (read_op ird 0 m) as [a m1|e m1| |] eqn:R0; cbn [bind strip]; try reflexivity.
  rewrite (read_literal_one irs 0 m1 L1). cbn [bind].
  rewrite (sub_op_ext irs ird 1 0 E).
  destruct (sub_op ird a 1 0 m1); reflexivity.
Qed.

(* the literal &0: TST s = CMP &0, s  and  CLR d = MOV &0, d *)
Definition literal_zero (o : operand) : Prop := omode o = MPosLit /\ oemb o = 0.
Lemma read_literal_zero ir k m : literal_zero (get_op ir k) -> read_op ir k m = Ok 0 m.
Proof. intros [Hm He]. unfold read_op. cbv zeta. rewrite Hm, He. reflexivity. Qed.

Lemma clr_eq_mov0 irc irm m :
  (iopcode irc = 128 /\ iopcode irm = 132) \/ (iopcode irc = 130 /\ iopcode irm = 134) \/ (iopcode irc = 131 /\ iopcode irm = 135) ->
  literal_zero (get_op irm 0) -> get_op irm 1 = get_op irc 0 -> otype (get_op irc 0) <> DNone ->
  strip (exec irc m) = strip (exec irm m).
Proof.
  intros Ho L0 E Ht. rewrite (exec_clr irc m), (exec_movx irm m) by tauto. unfold unary_arm.
  rewrite (read_literal_zero irm 0 m L0). cbn [bind]. rewrite (write_op_ext irm irc 1 0 0 m E).
  destruct (write_op irc 0 0 m) as [u m1|e m1| |]; cbn [bind strip]; try reflexivity.
  change (op1 irm) with (get_op irm 1). rewrite E.
  unfold set_nz_flags, set_v_flag_op.
  change (bset 0 2147483648) with false. change (bset 0 32768) with false. change (bset 0 128) with false.
  change (0 =? 0) with true. change (w16 0 =? 0) with true. change (w8 0 =? 0) with true.
  change (0 >? 65535) with false. change (0 >? 255) with false.
  destruct (otype (get_op irc 0)); try congruence; reflexivity.
Qed.

(* MCOM s, d  =  XOR3 &-1, s, d *)
Lemma lxor_ones a : 0 <= a < 4294967296 -> Z.lxor 4294967295 a = not32 a.
Proof.
  intros H. apply Z.bits_inj'. intros n Hn. rewrite Z.lxor_spec. change 4294967295 with (Z.ones 32).
  destruct (Z.lt_ge_cases n 32) as [L|G].
  - rewrite not32_testbit, Z.ones_spec_low by lia. reflexivity.
  - rewrite Z.ones_spec_high, !testbit_small by (unfold not32; lia). reflexivity.
Qed.

Definition literal_minus_one (o : operand) : Prop := omode o = MNegLit /\ oemb o = 255.
Lemma read_literal_minus_one ir k m : literal_minus_one (get_op ir k) -> read_op ir k m = Ok 4294967295 m.
Proof. intros [Hm He]. unfold read_op. cbv zeta. rewrite Hm, He. reflexivity. Qed.

Lemma mcom_eq_xor_ones irm irx m :
  (iopcode irm = 136 /\ iopcode irx = 244) \/ (iopcode irm = 138 /\ iopcode irx = 246) \/ (iopcode irm = 139 /\ iopcode irx = 247) ->
  literal_minus_one (get_op irx 0) -> get_op irx 1 = get_op irm 0 -> get_op irx 2 = get_op irm 1 ->
  (forall a m1, read_op irm 0 m = Ok a m1 -> 0 <= a < 4294967296) ->
  strip (exec irm m) = strip (exec irx m).
Proof.
  intros Ho L E1 E2 Hr. rewrite (exec_mcom irm m), (proj2 (exec_xor irx m)) by tauto.
  unfold unary_arm, alu_std. rewrite (read_literal_minus_one irx 0 m L). cbn [bind].
  rewrite (read_op_ext irx irm 1 0 m E1).
  destruct (read_op irm 0 m) as [a m1|e m1| |] eqn:R0; cbn [bind strip]; try reflexivity.
  rewrite (lxor_ones a) by (eapply Hr; eauto).
  rewrite (write_op_ext irx irm 2 1 _ m1 E2).
  destruct (write_op irm 1 (not32 a) m1) as [u m2|e m2| |]; cbn [bind strip]; try reflexivity.
  change (op1 irm) with (get_op irm 1). now rewrite E2.
Qed.

(* ALSW3  =  LLSW3 when the operand reads are free of side effects (the two arms read in opposite order) *)
Lemma als_eq_lls ira irl m cnt v :
  iopcode ira = 192 -> iopcode irl = 208 ->
  get_op irl 0 = get_op ira 0 -> get_op irl 1 = get_op ira 1 -> get_op irl 2 = get_op ira 2 ->
  read_op ira 0 m = Ok cnt m -> read_op ira 1 m = Ok v m ->
  strip (exec ira m) = strip (exec irl m).
Proof.
  intros Ha Hl E0 E1 E2 R0 R1. rewrite (exec_alsw3 ira m Ha), (exec_llsw3 irl m Hl).
  unfold alu_std. rewrite R0. cbn [bind]. rewrite R1. cbn [bind].
  rewrite (read_op_ext irl ira 1 1 m E1), R1. cbn [bind].
  rewrite (read_op_ext irl ira 0 0 m E0), R0. cbn [bind]. cbv zeta.
  rewrite (write_op_ext irl ira 2 2 _ m E2).
  destruct (write_op ira 2 (w32 (Z.shiftl v (Z.land cnt 31))) m); cbn [bind strip]; try reflexivity.
  change (op2 irl) with (get_op irl 2). rewrite E2. reflexivity.
Qed.
