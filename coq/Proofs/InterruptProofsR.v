(* C07: control blocks with the R flag (register save area).  context_switch_1 into such a block saves PC, PSW, SP and then
   AP, FP, r0-r8 in the old block; RETPS through a block whose saved PSW has R reloads them.  The statements here
   are the R and R+I instances of the general ones of InterruptProofs.v: entry, RETPS, the three transparency theorems
   (interrupt with R, with R and I, CALLPS with R), and a concrete machine that meets their premises. *)
From Coq Require Import ZArith Lia Bool List.
From Dmd Require Import Model.Bits Model.Types Model.Mem Model.Bus Model.Decode Model.Cpu.
From Dmd Require Import Proofs.BitsLemmas Proofs.BusProofs Proofs.RegKit
  Proofs.MachKit Proofs.InterruptProofs Proofs.InterruptProofsI.
Import ListNotations.
Open Scope Z_scope.

Definition pcb_in_ram (P : Z) : Prop := RAMB <= P /\ P + 64 <= RAME /\ P mod 4 = 0.

Lemma cs1_effect_R N P m :
  bus_wf (mbus m) -> R m R_PCBP = P -> pcb_in_ram P -> in_ram_w N -> (N + 4 <= P \/ P + 64 <= N) ->
  Z.testbit (ldw m N) 8 = true ->
  exists m', context_switch_1 N m = Ok tt m'
    /\ bus_wf (mbus m')
    /\ PSW m' = Z.lor (clr32 (PSW m) F_R) (Z.land (ldw m N) F_R)
    /\ R m' R_FP = P + 52
    /\ (forall i, 0 <= i <= 15 -> i <> 9 -> i <> 11 -> R m' i = R m i)
    /\ ldw m' P = w32 (PSW m') /\ ldw m' (P + 4) = w32 (R m R_PC) /\ ldw m' (P + 8) = w32 (R m R_SP)
    /\ ldw m' (P + 20) = w32 (R m R_AP) /\ ldw m' (P + 24) = w32 (R m R_FP)
    /\ (forall k, 0 <= k <= 8 -> ldw m' (P + 28 + 4 * k) = w32 (R m k))
    /\ (forall a, RAMB <= a -> (a < P \/ P + 64 <= a) -> ramb m' a = ramb m a).
Proof.
  intros W EP HP HN D HR. subst P.
  destruct (cs1_effect true N m W HR HP HN D) as (m' & E & W' & Ps & Rg & L0 & L4 & L8 & (Fp & L20 & L24 & Lk) & F).
  exists m'. split; [exact E|]. split; [exact W'|]. split; [exact Ps|]. split; [exact Fp|].
  split; [intros i Hi N9 N11; now apply Rg|]. repeat split; assumption.
Qed.

Definition after_cs3 (m : mach) (P : Z) : mach :=
  setR (setR (setR (setR m 0 (P + 64)) 2 0) 0 (P + 68)) 0 (P + 72).

Lemma cs3_effect_R_empty m P :
  bus_wf (mbus m) -> R m R_PCBP = P -> in_ram_w (P + 64) -> ldw m (P + 64) = 0 -> bset (PSW m) F_R = true ->
  context_switch_3 m = Ok tt (after_cs3 m P).
Proof. exact (cs3_R_empty m P). Qed.

Lemma retps_effect_R ir m :
  iopcode ir = 12488 -> is_kernel m = true -> bus_wf (mbus m) ->
  4 <= R m R_ISP < 4294967296 -> in_ram_w (R m R_ISP - 4) ->
  let P := ldw m (R m R_ISP - 4) in
  pcb_in_ram P -> in_ram_w (P + 64) -> ldw m (P + 64) = 0 ->
  let Q := ldw m P in
  Z.testbit Q 8 = true -> Z.testbit Q 7 = false ->
  exists m', exec ir m = Ok 0 m' /\ mbus m' = mbus m
    /\ R m' R_ISP = R m R_ISP - 4 /\ R m' R_PCBP = P /\ PSW m' = clr32 Q F_TM
    /\ R m' R_PC = ldw m (P + 4) /\ R m' R_SP = ldw m (P + 8)
    /\ R m' R_FP = ldw m (P + 24) /\ R m' R_AP = ldw m (P + 20)
    /\ (forall k, 0 <= k <= 8 -> R m' k = ldw m (P + 28 + 4 * k)).
Proof.
  intros Ho K W _ Hs P HP H64 L64 Q QR QI.
  exact (retps_effect_gen true ir m Ho K W Hs QR QI HP (conj H64 L64)).
Qed.

Lemma on_interrupt_effect_gen_R v m N P S H :
  bus_wf (mbus m) -> 0 <= v -> in_rom_w (140 + 4 * v) ->
  romw m (140 + 4 * v) = N -> R m R_PCBP = P -> R m R_ISP = S -> ldw m N = H ->
  pcb_in_ram N -> in_ram_w (N + 64) -> ldw m (N + 64) = 0 ->
  pcb_in_ram P -> in_ram_w S -> S + 4 < 4294967296 ->
  (P + 64 <= N \/ N + 68 <= P) -> (S + 4 <= P \/ P + 64 <= S) -> (S + 4 <= N \/ N + 68 <= S) ->
  Z.testbit H 8 = true -> Z.testbit H 7 = false ->
  exists m1, on_interrupt v m = Ok tt m1
    /\ bus_wf (mbus m1)
    /\ R m1 R_ISP = S + 4 /\ R m1 R_PCBP = N /\ PSW m1 = handler_psw H
    /\ R m1 R_PC = ldw m (N + 4) /\ R m1 R_SP = ldw m (N + 8)
    /\ ldw m1 S = w32 P /\ ldw m1 P = w32 (saved_psw (PSW m) H)
    /\ ldw m1 (P + 4) = w32 (R m R_PC) /\ ldw m1 (P + 8) = w32 (R m R_SP)
    /\ ldw m1 (P + 20) = w32 (R m R_AP) /\ ldw m1 (P + 24) = w32 (R m R_FP)
    /\ (forall k, 0 <= k <= 8 -> ldw m1 (P + 28 + 4 * k) = w32 (R m k))
    /\ (forall a, RAMB <= a -> (a < S \/ S + 4 <= a) -> (a < P \/ P + 64 <= a) -> ramb m1 a = ramb m a).
Proof.
  intros W _ Hrom <- <- <- <- HN HN64 LN64 HP HS _ D1 D2 D3 HR HI. rewrite on_interrupt_entry by assumption.
  destruct (entry_effect true false _ m W HR HI) as (m1 & E & W1 & I1 & Pc & Ps & PC & SP & _ & K);
    try assumption; [exact (blk_sub _ 64 12 HN ltac:(lia)) | now split |].
  exists m1. split; [exact E|]. split; [exact W1|]. destruct K as (LS & LP & L4 & L8 & (L20 & L24 & Lk) & F).
  repeat split; assumption.
Qed.

(* interrupt delivered through a handler control block with the R flag (kernel level, no I, empty block-move lists in
   both blocks); the handler returns at once with RETPS: the interrupted program continues with PC, SP, r0-r8, FP, AP,
   PCBP, ISP, condition codes, priority level and execution level exactly as they were -- although entry and return
   use r0-r2 and FP as scratch, the register save area of the interrupted process's control block brings them back *)
Theorem interrupt_retps_transparent_R ir v m :
  iopcode ir = 12488 ->
  bus_wf (mbus m) -> 0 <= v -> in_rom_w (140 + 4 * v) ->
  let N := romw m (140 + 4 * v) in
  let P := R m R_PCBP in
  let S := R m R_ISP in
  pcb_in_ram N -> in_ram_w (N + 64) -> ldw m (N + 64) = 0 ->
  pcb_in_ram P -> in_ram_w (P + 64) -> ldw m (P + 64) = 0 ->
  in_ram_w S -> S + 4 < 4294967296 ->
  (P + 68 <= N \/ N + 68 <= P) -> (S + 4 <= P \/ P + 68 <= S) -> (S + 4 <= N \/ N + 68 <= S) ->
  let H := ldw m N in
  0 <= H -> Z.testbit H 8 = true -> Z.testbit H 7 = false -> Z.testbit H 11 = false -> Z.testbit H 12 = false ->
  Z.testbit (PSW m) 7 = false ->
  (forall i, 0 <= i <= 15 -> 0 <= R m i < 4294967296) ->
  exists m1 m2,
    on_interrupt v m = Ok tt m1 /\ exec ir m1 = Ok 0 m2
    /\ R m2 R_PC = R m R_PC /\ R m2 R_SP = R m R_SP /\ R m2 R_PCBP = P /\ R m2 R_ISP = S
    /\ (forall i, 0 <= i <= 10 -> R m2 i = R m i)
    /\ (forall k, In k [21; 20; 19; 18; 16; 15; 14; 13; 12; 11; 10; 9; 7] -> Z.testbit (PSW m2) k = Z.testbit (PSW m) k)
    /\ (forall a, RAMB <= a -> (a < S \/ S + 4 <= a) -> (a < P \/ P + 64 <= a) -> ramb m2 a = ramb m a).
Proof.
  intros Ho W _ Hrom N P S HN HN64 LN64 HP HP64 LP64 HS _ D1 D2 D3 H _ HR HI H11 H12 PI Rg.
  destruct (entry_retps_transparent true false ir N m Ho W HR HI H11 H12 PI)
    as (m1 & m2 & E1 & _ & E2 & Pc & Sp & Pcb & Isp & Rg2 & Bits & Fr);
    try assumption; [exact (blk_sub _ 64 12 HN ltac:(lia)) | exact (conj HN64 (conj LN64 (conj HP64 LP64))) |].
  exists m1, m2. rewrite on_interrupt_entry by assumption. rewrite w32_id in Pc, Sp by (apply Rg; unfold R_PC, R_SP; lia).
  repeat split; try assumption. intros i Hi. rewrite (Rg2 i Hi). apply w32_id, Rg. lia.
Qed.

(* the same with R and I together: context_switch_2 moves PCBP 12 bytes on, so the (empty) block-move list that
   context_switch_3 consults is the one 64 bytes behind the moved pointer *)
Theorem interrupt_retps_transparent_RI ir v m :
  iopcode ir = 12488 ->
  bus_wf (mbus m) -> 0 <= v -> in_rom_w (140 + 4 * v) ->
  let N := romw m (140 + 4 * v) in
  let P := R m R_PCBP in
  let S := R m R_ISP in
  pcb_in_ram N -> in_ram_w (N + 76) -> ldw m (N + 76) = 0 ->
  pcb_in_ram P -> in_ram_w (P + 64) -> ldw m (P + 64) = 0 ->
  in_ram_w S -> S + 4 < 4294967296 ->
  (P + 68 <= N \/ N + 80 <= P) -> (S + 4 <= P \/ P + 68 <= S) -> (S + 4 <= N \/ N + 80 <= S) ->
  let H := ldw m N in
  0 <= H -> Z.testbit H 8 = true -> Z.testbit H 7 = true -> Z.testbit H 11 = false -> Z.testbit H 12 = false ->
  Z.testbit (PSW m) 7 = false ->
  (forall i, 0 <= i <= 15 -> 0 <= R m i < 4294967296) ->
  exists m1 m2,
    on_interrupt v m = Ok tt m1 /\ R m1 R_PCBP = N + 12 /\ exec ir m1 = Ok 0 m2
    /\ R m2 R_PC = R m R_PC /\ R m2 R_SP = R m R_SP /\ R m2 R_PCBP = P /\ R m2 R_ISP = S
    /\ (forall i, 0 <= i <= 10 -> R m2 i = R m i)
    /\ (forall k, In k [21; 20; 19; 18; 16; 15; 14; 13; 12; 11; 10; 9; 7] -> Z.testbit (PSW m2) k = Z.testbit (PSW m) k)
    /\ (forall a, RAMB <= a -> (a < S \/ S + 4 <= a) -> (a < P \/ P + 64 <= a) -> ramb m2 a = ramb m a).
Proof.
  intros Ho W _ Hrom N P S HN HN64 LN64 HP HP64 LP64 HS _ D1 D2 D3 H _ HR HI H11 H12 PI Rg.
  destruct (entry_retps_transparent true true ir N m Ho W HR HI H11 H12 PI)
    as (m1 & m2 & E1 & Pcb1 & E2 & Pc & Sp & Pcb & Isp & Rg2 & Bits & Fr);
    try assumption; [exact (blk_sub _ 64 12 HN ltac:(lia)) | exact (conj HN64 (conj LN64 (conj HP64 LP64))) |].
  exists m1, m2. rewrite on_interrupt_entry by assumption. rewrite w32_id in Pc, Sp by (apply Rg; unfold R_PC, R_SP; lia).
  repeat split; try assumption. intros i Hi. rewrite (Rg2 i Hi). apply w32_id, Rg. lia.
Qed.

Lemma entry_from_effect_R m N P S H :
  bus_wf (mbus m) ->
  R m R_PCBP = P -> R m R_ISP = S -> ldw m N = H ->
  pcb_in_ram N -> in_ram_w (N + 64) -> ldw m (N + 64) = 0 ->
  pcb_in_ram P -> in_ram_w S -> S + 4 < 4294967296 ->
  (P + 64 <= N \/ N + 68 <= P) -> (S + 4 <= P \/ P + 64 <= S) -> (S + 4 <= N \/ N + 68 <= S) ->
  Z.testbit H 8 = true -> Z.testbit H 7 = false ->
  exists m1, entry_from N m = Ok tt m1
    /\ bus_wf (mbus m1)
    /\ R m1 R_ISP = S + 4 /\ R m1 R_PCBP = N /\ PSW m1 = handler_psw H
    /\ R m1 R_PC = ldw m (N + 4) /\ R m1 R_SP = ldw m (N + 8)
    /\ ldw m1 S = w32 P /\ ldw m1 P = w32 (saved_psw (PSW m) H)
    /\ ldw m1 (P + 4) = w32 (R m R_PC) /\ ldw m1 (P + 8) = w32 (R m R_SP)
    /\ ldw m1 (P + 20) = w32 (R m R_AP) /\ ldw m1 (P + 24) = w32 (R m R_FP)
    /\ (forall k, 0 <= k <= 8 -> ldw m1 (P + 28 + 4 * k) = w32 (R m k))
    /\ (forall a, RAMB <= a -> (a < S \/ S + 4 <= a) -> (a < P \/ P + 64 <= a) -> ramb m1 a = ramb m a).
Proof.
  intros W <- <- <- HN HN64 LN64 HP HS _ D1 D2 D3 HR HI.
  destruct (entry_effect true false N m W HR HI) as (m1 & E & W1 & I1 & Pc & Ps & PC & SP & _ & K);
    try assumption; [exact (blk_sub _ 64 12 HN ltac:(lia)) | now split |].
  exists m1. split; [exact E|]. split; [exact W1|]. destruct K as (LS & LP & L4 & L8 & (L20 & L24 & Lk) & F).
  repeat split; assumption.
Qed.

(* CALLPS to a control block with the R flag (kernel level, no I, empty block-move lists) whose code returns at once
   with RETPS: the caller continues after the CALLPS with SP, r0-r10, PCBP, ISP, condition codes, priority and execution
   level as they were *)
Theorem callps_retps_transparent_R irc irr m :
  iopcode irc = 12460 -> iopcode irr = 12488 -> is_kernel m = true ->
  bus_wf (mbus m) ->
  let N := R m 0 in
  let P := R m R_PCBP in
  let S := R m R_ISP in
  pcb_in_ram N -> in_ram_w (N + 64) -> ldw m (N + 64) = 0 ->
  pcb_in_ram P -> in_ram_w (P + 64) -> ldw m (P + 64) = 0 ->
  in_ram_w S -> S + 4 < 4294967296 ->
  (P + 68 <= N \/ N + 68 <= P) -> (S + 4 <= P \/ P + 68 <= S) -> (S + 4 <= N \/ N + 68 <= S) ->
  let H := ldw m N in
  0 <= H -> Z.testbit H 8 = true -> Z.testbit H 7 = false -> Z.testbit H 11 = false -> Z.testbit H 12 = false ->
  Z.testbit (PSW m) 7 = false ->
  (forall i, 0 <= i <= 15 -> 0 <= R m i < 4294967296) ->
  exists m1 m2,
    exec irc m = Ok 0 m1 /\ exec irr m1 = Ok 0 m2
    /\ R m2 R_PC = add32 (R m R_PC) 2 /\ R m2 R_SP = R m R_SP /\ R m2 R_PCBP = P /\ R m2 R_ISP = S
    /\ (forall i, 0 <= i <= 10 -> R m2 i = R m i)
    /\ (forall k, In k [21; 20; 19; 18; 16; 15; 14; 13; 12; 11; 10; 9; 7] -> Z.testbit (PSW m2) k = Z.testbit (PSW m) k)
    /\ (forall a, RAMB <= a -> (a < S \/ S + 4 <= a) -> (a < P \/ P + 64 <= a) -> ramb m2 a = ramb m a).
Proof.
  intros Hc Hr K W N P S HN HN64 LN64 HP HP64 LP64 HS _ D1 D2 D3 H _ HR HI H11 H12 PI Rg.
  destruct (callps_retps true irc irr m Hc Hr K W HR HI H11 H12 PI)
    as (m1 & m2 & E1 & E2 & Pc & Sp & Pcb & Isp & Rg2 & Bits & Fr);
    try assumption; [exact (blk_sub _ 64 12 HN ltac:(lia)) | exact (conj HN64 (conj LN64 (conj HP64 LP64))) |].
  exists m1, m2. rewrite w32_id in Sp by (apply Rg; unfold R_SP; lia).
  repeat split; try assumption. intros i Hi. rewrite (Rg2 i Hi). apply w32_id, Rg. lia.
Qed.

(* a concrete machine that meets every hypothesis of interrupt_retps_transparent_R: vector 1 names a handler control
   block at 0x748000 whose PSW word has R set (and priority level 15); the interrupted process's block is at 0x740000,
   the interrupt stack at 0x741000; RAM is otherwise zero (so both block-move lists are empty) *)
Definition ex_rom : mem :=
  mset (mset (mset (mset (rom (bus_new 0)) 144 0) 145 116) 146 128) 147 0.      (* 0x00748000 at 0x90 *)
Definition ex_m : mach :=
  stw (mkMach (mkRegs 1 2 3 4 5 6 7 8 9 7537408 7537664 0 7536640 7602176 7606272 7340288)
              (with_rom (bus_new 0) ex_rom))
      7634944 123136.                                                              (* 0x748000 <- 0x1e100 *)

Example R_block_premises :
  let m := ex_m in let v := 1 in
  bus_wf (mbus m) /\ 0 <= v /\ in_rom_w (140 + 4 * v)
  /\ (let N := romw m (140 + 4 * v) in
      let P := R m R_PCBP in
      let S := R m R_ISP in
      pcb_in_ram N /\ in_ram_w (N + 64) /\ ldw m (N + 64) = 0
      /\ pcb_in_ram P /\ in_ram_w (P + 64) /\ ldw m (P + 64) = 0
      /\ in_ram_w S /\ S + 4 < 4294967296
      /\ (P + 68 <= N \/ N + 68 <= P) /\ (S + 4 <= P \/ P + 68 <= S) /\ (S + 4 <= N \/ N + 68 <= S)
      /\ (let H := ldw m N in
          0 <= H /\ Z.testbit H 8 = true /\ Z.testbit H 7 = false /\ Z.testbit H 11 = false /\ Z.testbit H 12 = false))
  /\ Z.testbit (PSW m) 7 = false
  /\ (forall i, 0 <= i <= 15 -> 0 <= R m i < 4294967296).
Proof.
  cbv zeta.
  split; [constructor; cbn; auto|].
  split; [lia|]. split; [unfold in_rom_w; cbn; lia|].
  split.
  { assert (EN : romw ex_m (140 + 4 * 1) = 7634944) by (vm_compute; reflexivity).
    assert (EP : R ex_m R_PCBP = 7602176) by (vm_compute; reflexivity).
    assert (ES : R ex_m R_ISP = 7606272) by (vm_compute; reflexivity).
    rewrite EN, EP, ES. unfold pcb_in_ram, in_ram_w, RAMB, RAME.
    assert (L1 : ldw ex_m (7634944 + 64) = 0) by (vm_compute; reflexivity).
    assert (L2 : ldw ex_m (7602176 + 64) = 0) by (vm_compute; reflexivity).
    assert (LH : ldw ex_m 7634944 = 123136) by (vm_compute; reflexivity).
    rewrite L1, L2, LH. cbn. repeat split; try lia; try reflexivity. }
  split; [vm_compute; reflexivity|].
  intros i Hi.
  assert (Ei : i = 0 \/ i = 1 \/ i = 2 \/ i = 3 \/ i = 4 \/ i = 5 \/ i = 6 \/ i = 7 \/ i = 8 \/ i = 9 \/ i = 10
               \/ i = 11 \/ i = 12 \/ i = 13 \/ i = 14 \/ i = 15) by lia.
  repeat (destruct Ei as [Ei|Ei]; [subst i; vm_compute; split; [discriminate | reflexivity]|]).
  subst i; vm_compute; split; [discriminate | reflexivity].
Qed.
