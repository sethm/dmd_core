(* Load / store theory for the machine: accesses to RAM (and word reads of ROM) as functions (ldw / stw / sth / stb,
   romw), read-after-write, frames, blocks of words (`blk`), how they commute with register updates (rewrite set
   `mach`), runs of word stores and loads driven by a table (`wr_regs`, `rd_regs`), single bits of the PSW
   (`psw_bit`).  Foundation for C02-C04, C06, C07, C13, C18. *)
From Coq Require Import ZArith Lia Bool List ZifyBool.
From Dmd Require Import Model.Bits Model.Types Model.Mem Model.Duart Model.Bus Model.Decode Model.Cpu.
From Dmd Require Import Proofs.BitsLemmas Proofs.BitKit Proofs.MemProofs Proofs.BusProofs Proofs.RegKit.
Import ListNotations.
Open Scope Z_scope.

Definition RAMB : Z := 7340032.
Definition RAME : Z := 8388608.
Definition in_ram_w (a : Z) : Prop := RAMB <= a /\ a + 4 <= RAME /\ a mod 4 = 0.
Definition ramb (m : mach) (a : Z) : Z := mget (ram (mbus m)) (a - RAMB).
Definition ldw (m : mach) (a : Z) : Z :=
  ramb m a * 16777216 + ramb m (a + 1) * 65536 + ramb m (a + 2) * 256 + ramb m (a + 3).
Definition ram_stw (r : mem) (a v : Z) : mem :=
  let off := a - RAMB in let x := w32 v in
  mset (mset (mset (mset r off (w8 (x / 16777216))) (off + 1) (w8 (x / 65536))) (off + 2) (w8 (x / 256))) (off + 3) (w8 x).
Definition stw (m : mach) (a v : Z) : mach :=
  with_bus m (with_ram (mark_dirty a (mbus m)) (ram_stw (ram (mbus m)) a v)).
Definition in_ram_h (a : Z) : Prop := RAMB <= a /\ a + 2 <= RAME /\ a mod 2 = 0.
Definition in_ram_b (a : Z) : Prop := RAMB <= a /\ a + 1 <= RAME.
Definition sth (m : mach) (a v : Z) : mach :=
  let off := a - RAMB in let x := w16 v in
  with_bus m (with_ram (mark_dirty a (mbus m)) (mset (mset (ram (mbus m)) off (w8 (x / 256))) (off + 1) (w8 x))).
Definition stb (m : mach) (a v : Z) : mach :=
  with_bus m (with_ram (mark_dirty a (mbus m)) (mset (ram (mbus m)) (a - RAMB) (w8 (w8 v)))).
Definition in_rom_w (a : Z) : Prop := 0 <= a /\ a + 4 <= 131072 /\ a mod 4 = 0.
Definition romw (m : mach) (a : Z) : Z :=
  mget (rom (mbus m)) a * 16777216 + mget (rom (mbus m)) (a + 1) * 65536
  + mget (rom (mbus m)) (a + 2) * 256 + mget (rom (mbus m)) (a + 3).

Lemma with_bus_eta m : with_bus m (mbus m) = m.
Proof. destruct m; reflexivity. Qed.

Lemma get_device_ram a : RAMB <= a < RAME -> get_device a = Some DRam.
Proof. exact (get_device_in DRam a). Qed.

(* a store of any width; stw / sth / stb, which the statements of the properties use, are its three instances *)
Definition stx (w : width) (m : mach) (a v : Z) : mach :=
  with_bus m (with_ram (mark_dirty a (mbus m)) (mset_list (ram (mbus m)) (a - RAMB) (be_bytes w (wtrunc w v)))).

Lemma stw_stx m a v : stw m a v = stx W4 m a v.
Proof. unfold stw, stx, ram_stw. cbn [mset_list be_bytes wtrunc]. now rewrite <- !Z.add_assoc. Qed.
Lemma sth_stx m a v : sth m a v = stx W2 m a v.
Proof. reflexivity. Qed.
Lemma stb_stx m a v : stb m a v = stx W1 m a v.
Proof. reflexivity. Qed.

Lemma wr_ram w m a v : bus_wf (mbus m) -> aligned w a = true -> RAMB <= a -> wlast w a < RAME ->
  liftb (bus_write w a v) m = Ok tt (stx w m a v).
Proof.
  intros W A L U. unfold liftb, stx. rewrite bus_write_route, A, (get_device_ram a), dev_write_nf, mem_write_nf
    by (unfold RAME in *; destruct w; cbn [wlast] in U; lia).
  rewrite dev_mem_mark_dirty. destruct (wf_dev _ DRam W eq_refl) as (-> & -> & ->). cbn [dev_lo dev_hi dev_mem].
  now replace (_ >=? _) with false by (unfold RAME in U; lia); replace (_ <=? _) with true by (unfold RAMB in L; lia).
Qed.

Lemma rd_mem w d m a : bus_wf (mbus m) -> is_memdev d = true -> aligned w a = true ->
  dev_lo d <= a -> wlast w a < dev_hi d ->
  liftb (bus_read w a) m = Ok (be_val w (byte_at (dev_mem (mbus m) d)) a) m.
Proof.
  intros W M A L U. unfold liftb. rewrite bus_read_route, A, (get_device_in d a), dev_read_nf
    by (destruct w; cbn [wlast] in U; lia).
  destruct (wf_dev _ d W M) as (Eb & Ee & _).
  replace (match d with DDuart | DMouse => _ | _ => lift_r (mbus m) (mem_read w (dev_mem (mbus m) d) a) end)
    with (lift_r (mbus m) (mem_read w (dev_mem (mbus m) d) a)) by (destruct d; try discriminate; reflexivity).
  rewrite mem_read_ok by lia. cbn [lift_r]. now rewrite with_bus_eta.
Qed.

Lemma aligned4 a : a mod 4 = 0 -> aligned W4 a = true.
Proof. intros H. cbn. now rewrite land3_mod, H. Qed.

Lemma wr_word_ram m a v : bus_wf (mbus m) -> in_ram_w a -> wr_word a v m = Ok tt (stw m a v).
Proof. intros W (L & U & A). rewrite stw_stx. apply (wr_ram W4); auto using aligned4. cbn; lia. Qed.
Lemma wr_half_ram m a v : bus_wf (mbus m) -> in_ram_h a -> wr_half a v m = Ok tt (sth m a v).
Proof. intros W (L & U & A). apply (wr_ram W2); try assumption; cbn; [now rewrite land1_mod, A | lia]. Qed.
Lemma wr_byte_ram m a v : bus_wf (mbus m) -> in_ram_b a -> wr_byte a v m = Ok tt (stb m a v).
Proof. intros W (L & U). apply (wr_ram W1); try assumption; cbn; [reflexivity | lia]. Qed.

Lemma rd_word_ram m a : bus_wf (mbus m) -> in_ram_w a -> rd_word a m = Ok (ldw m a) m.
Proof.
  intros W (L & U & A). unfold rd_word. rewrite (rd_mem W4 DRam) by (auto using aligned4; cbn; unfold RAME in U; lia).
  unfold ldw, ramb, be_val, byte_at. cbn [dev_mem]. destruct W as [_ _ _ [-> _]]. reflexivity.
Qed.
Lemma rd_word_rom m a : bus_wf (mbus m) -> in_rom_w a -> rd_word a m = Ok (romw m a) m.
Proof.
  intros W (L & U & A). unfold rd_word. rewrite (rd_mem W4 DRom) by (auto using aligned4; cbn; lia).
  unfold romw, be_val, byte_at. cbn [dev_mem]. destruct W as [[-> _] _ _ _]. now rewrite !Z.sub_0_r.
Qed.

Lemma ramb_stx w m a v a' : RAMB <= a -> RAMB <= a' ->
  ramb (stx w m a v) a' =
    if (a <=? a') && (a' <=? wlast w a) then w8 (nth (Z.to_nat (a' - a)) (be_bytes w (wtrunc w v)) 0) else ramb m a'.
Proof.
  intros Ha Ha'. unfold ramb, stx. cbn [mbus with_bus ram with_ram]. rewrite mget_mset_list by lia.
  replace (a' - RAMB - (a - RAMB)) with (a' - a) by lia.
  destruct w; cbn [length be_bytes wlast]; destruct (_ && _) eqn:E; now if_lia.
Qed.

Lemma ramb_stw m a v a' : RAMB <= a -> RAMB <= a' ->
  ramb (stw m a v) a' =
    if a' =? a then w8 (w32 v / 16777216)
    else if a' =? a + 1 then w8 (w32 v / 65536)
    else if a' =? a + 2 then w8 (w32 v / 256)
    else if a' =? a + 3 then w8 (w32 v)
    else ramb m a'.
Proof.
  intros Ha Ha'. rewrite stw_stx, ramb_stx by assumption. cbn [wlast be_bytes wtrunc].
  destruct (_ && _) eqn:C; [|now repeat (if_lia; cbv iota)].
  assert (E : a' = a \/ a' = a + 1 \/ a' = a + 2 \/ a' = a + 3) by lia.
  destruct E as [->|[->|[->| ->]]]; rewrite ?Z.sub_diag, ?Z.add_simpl_l; now repeat (if_lia; cbv iota).
Qed.
Lemma ramb_sth m a v a' : RAMB <= a -> RAMB <= a' ->
  ramb (sth m a v) a' = if a' =? a then w8 (w16 v / 256) else if a' =? a + 1 then w8 (w16 v) else ramb m a'.
Proof.
  intros Ha Ha'. rewrite sth_stx, ramb_stx by assumption. cbn [wlast be_bytes wtrunc].
  destruct (_ && _) eqn:C; [|now repeat (if_lia; cbv iota)].
  assert (E : a' = a \/ a' = a + 1) by lia.
  destruct E as [->| ->]; rewrite ?Z.sub_diag, ?Z.add_simpl_l; now repeat (if_lia; cbv iota).
Qed.
Lemma ramb_stb m a v a' : RAMB <= a -> RAMB <= a' ->
  ramb (stb m a v) a' = if a' =? a then w8 v else ramb m a'.
Proof.
  intros Ha Ha'. rewrite stb_stx, ramb_stx by assumption. cbn [wlast be_bytes wtrunc].
  destruct (Z.eqb_spec a' a) as [->|?]; [|now if_lia]. if_lia. rewrite Z.sub_diag. apply w8_id, w8_range.
Qed.

Lemma bytes_recompose x : 0 <= x < 4294967296 ->
  w8 (x / 16777216) * 16777216 + w8 (x / 65536) * 65536 + w8 (x / 256) * 256 + w8 x = x.
Proof. intros H. rewrite <- (w32_id x H) at 5. exact (be_join W4 x). Qed.

Lemma ldw_stw_same m a v : RAMB <= a -> ldw (stw m a v) a = w32 v.
Proof.
  intros Ha. rewrite stw_stx. unfold ldw. rewrite !ramb_stx by lia. cbn [wlast]. repeat if_lia.
  rewrite Z.sub_diag, !Z.add_simpl_l. apply bytes_recompose, w32_range.
Qed.
Lemma ramb_stw_other m a v a' : RAMB <= a -> RAMB <= a' -> (a' < a \/ a + 4 <= a') ->
  ramb (stw m a v) a' = ramb m a'.
Proof. intros Ha Ha' D. rewrite stw_stx, ramb_stx by assumption. cbn [wlast]. now if_lia. Qed.

Lemma ldw_stw_other m a v a' : RAMB <= a -> RAMB <= a' -> (a' + 4 <= a \/ a + 4 <= a') ->
  ldw (stw m a v) a' = ldw m a'.
Proof.
  intros Ha Ha' D. unfold ldw. rewrite !ramb_stw_other by lia. reflexivity.
Qed.

Lemma aligned_words_disjoint a a' : a mod 4 = 0 -> a' mod 4 = 0 -> a <> a' -> a' + 4 <= a \/ a + 4 <= a'.
Proof. intros. Z.div_mod_to_equations. lia. Qed.

Lemma ldw_range m a : (forall o, 0 <= mget (ram (mbus m)) o < 256) -> 0 <= ldw m a < 4294967296.
Proof.
  intros H. unfold ldw, ramb.
  pose proof (H (a - RAMB)). pose proof (H (a + 1 - RAMB)). pose proof (H (a + 2 - RAMB)). pose proof (H (a + 3 - RAMB)). lia.
Qed.

Lemma R_stw m a v i : R (stw m a v) i = R m i.
Proof. reflexivity. Qed.
Lemma mregs_stw m a v : mregs (stw m a v) = mregs m.
Proof. reflexivity. Qed.
Lemma PSW_stw m a v : PSW (stw m a v) = PSW m.
Proof. reflexivity. Qed.
Lemma ldw_setR m i x a : ldw (setR m i x) a = ldw m a.
Proof. reflexivity. Qed.
Lemma ramb_setR m i x a : ramb (setR m i x) a = ramb m a.
Proof. reflexivity. Qed.
Lemma ldw_setPSW m x a : ldw (setPSW m x) a = ldw m a.
Proof. reflexivity. Qed.
Lemma ldw_setf mask v m a : ldw (setf mask v m) a = ldw m a.
Proof. reflexivity. Qed.

Lemma wf_stw m a v : bus_wf (mbus m) -> bus_wf (mbus (stw m a v)).
Proof.
  intros W. unfold stw. cbn [mbus with_bus].
  pose proof (wf_mark_dirty a _ W) as [A B C D]. constructor; cbn; auto.
  destruct W as [_ _ _ D']. exact D'.
Qed.
Lemma wf_setR m i x : bus_wf (mbus (setR m i x)) = bus_wf (mbus m).
Proof. reflexivity. Qed.

Lemma romw_stw m a v x : romw (stw m a v) x = romw m x.
Proof. unfold romw, stw. cbn [mbus with_bus]. now destruct (mark_dirty_cases a (mbus m)) as [-> | ->]. Qed.
Lemma romw_setR m i v x : romw (setR m i v) x = romw m x.
Proof. reflexivity. Qed.

Lemma rd_word_nodev m a : a mod 4 = 0 -> get_device a = None -> rd_word a m = Err (EBus BNoDevice) m.
Proof.
  intros H G. unfold rd_word, liftb. change (bus_read_word a) with (bus_read W4 a).
  now rewrite bus_read_route, (aligned4 a H), G, with_bus_eta.
Qed.
Lemma wr_word_nodev m a v : a mod 4 = 0 -> get_device a = None -> wr_word a v m = Err (EBus BNoDevice) m.
Proof.
  intros H G. unfold wr_word, liftb. change (bus_write_word a v) with (bus_write W4 a v).
  rewrite bus_write_route, (aligned4 a H), G. unfold mark_dirty. now rewrite (nodev_not_video a _ G), with_bus_eta.
Qed.

Ltac ramw := unfold in_ram_w, RAMB, RAME in *; lia.

Lemma testbit_clr32 x c k : Z.testbit (clr32 x c) k = Z.testbit x k && Z.testbit (not32 c) k.
Proof. unfold clr32. apply Z.land_spec. Qed.
Lemma testbit_w32 x k : 0 <= k < 32 -> Z.testbit (w32 x) k = Z.testbit x k.
Proof. intros H. unfold w32. change 4294967296 with (2 ^ 32). apply Z.mod_pow2_bits_low. lia. Qed.

(* one bit of a PSW built by lor / land / clr32 from literal masks: push testbit to the leaves and evaluate it on the
   literals *)
Ltac psw_bit :=
  repeat (rewrite ?Z.lor_spec, ?Z.land_spec, ?testbit_clr32);
  unfold F_ET, F_TM, F_ISC, F_I, F_R, F_PM, F_CM, F_IPL, F_C, F_V, F_Z, F_N, F_CD, F_QIE, F_CFD, not32;
  eval_closed_bits; rewrite ?andb_true_r, ?andb_false_r, ?orb_false_r, ?orb_true_r.

Lemma mregs_sth m a v : mregs (sth m a v) = mregs m. Proof. reflexivity. Qed.
Lemma mregs_stb m a v : mregs (stb m a v) = mregs m. Proof. reflexivity. Qed.

Lemma in_ram_w_u32 a : in_ram_w a -> 0 <= a < 4294967296.
Proof. unfold in_ram_w, RAMB, RAME. lia. Qed.
Lemma add32_in_ram a k : in_ram_w (a + k) -> add32 a k = a + k.
Proof. intros H. apply add32_small, in_ram_w_u32, H. Qed.
Lemma sub32_in_ram a k : in_ram_w (a - k) -> sub32 a k = a - k.
Proof. intros H. apply sub32_small, in_ram_w_u32, H. Qed.

(* the words of a block are picked by a closed test on the offset, so that no arithmetic has to be redone at the uses *)
Definition blk (a n : Z) : Prop := RAMB <= a /\ a + n <= RAME /\ a mod 4 = 0.
Definition offok (n k : Z) : bool := (0 <=? k) && (k + 4 <=? n) && (k mod 4 =? 0).

Lemma blk_word a n k : blk a n -> offok n k = true -> in_ram_w (a + k).
Proof.
  unfold offok. intros [A [B C]] H. apply andb_true_iff in H as [H H3]. apply andb_true_iff in H as [H1 H2].
  apply Z.leb_le in H1, H2. apply Z.eqb_eq in H3. repeat split; try lia.
  rewrite Z.add_mod, C, H3 by lia. reflexivity.
Qed.
Lemma blk_base a n : blk a n -> offok n 0 = true -> in_ram_w a.
Proof. intros B H. rewrite <- (Z.add_0_r a). exact (blk_word a n 0 B H). Qed.
Lemma blk_words3 a : in_ram_w a -> in_ram_w (a + 8) -> blk a 12.
Proof. intros [A [_ C]] [_ [B _]]. repeat split; try assumption. lia. Qed.
Lemma blk_sub a n n' : blk a n -> n' <= n -> blk a n'.
Proof. unfold blk. intros [A [B C]] H. repeat split; try assumption. lia. Qed.

Lemma ldw_ext m m' a : (forall x, a <= x < a + 4 -> ramb m' x = ramb m x) -> ldw m' a = ldw m a.
Proof. intros H. unfold ldw. rewrite !H by lia. reflexivity. Qed.
Lemma ldw_frame_blk m m' p n a :
  (forall x, RAMB <= x -> x < p \/ p + n <= x -> ramb m' x = ramb m x) ->
  RAMB <= a -> a + 4 <= p \/ p + n <= a -> ldw m' a = ldw m a.
Proof. intros F Ha D. apply ldw_ext. intros x Hx. apply F; lia. Qed.
Lemma ldw_same_bus m m' a : mbus m' = mbus m -> ldw m' a = ldw m a.
Proof. unfold ldw, ramb. now intros ->. Qed.

Lemma ldw_stw_w m a v a' : in_ram_w a -> in_ram_w a' -> ldw (stw m a v) a' = if a' =? a then w32 v else ldw m a'.
Proof.
  intros [A [_ A4]] [B [_ B4]]. destruct (Z.eqb_spec a' a) as [->|N]; [now apply ldw_stw_same|].
  apply ldw_stw_other; try assumption. apply aligned_words_disjoint; congruence.
Qed.

(* registers: the index conditions are closed booleans, decided by computation *)
Definition regne (i j : Z) : bool := (0 <=? i) && (i <=? 15) && (0 <=? j) && (j <=? 15) && negb (i =? j).
Lemma R_setR_ne m i j v : regne i j = true -> R (setR m i v) j = R m j.
Proof. unfold regne. intros H. apply R_setR_other; lia. Qed.
(* to be applied, never replaced by conversion: a Qed that has to convert bus_wf across a tall state term unfolds stw *)
Lemma wf_setR_imp m i x : bus_wf (mbus m) -> bus_wf (mbus (setR m i x)).
Proof. exact (fun W => W). Qed.

Create HintDb mach discriminated.
#[global] Hint Resolve wf_stw wf_setR_imp : mach.
#[global] Hint Rewrite R_setR_same R_stw ldw_setR ramb_setR : mach.
#[global] Hint Rewrite R_setR_ne using reflexivity : mach.

(* alast j l d: the value bound to key j by the last entry of l that has it, else d *)
Fixpoint alast (j : Z) (l : list (Z * Z)) (d : option Z) : option Z :=
  match l with [] => d | x :: t => alast j t (if fst x =? j then Some (snd x) else d) end.

Lemma alast_none j l d : alast j l d = None -> d = None.
Proof.
  revert d. induction l as [|x t IH]; intros d H; cbn [alast] in H; [exact H|].
  apply IH in H. destruct (fst x =? j); [discriminate H | exact H].
Qed.

(* a table folded over a state and observed at one key: the last entry with that key decides.
   d: what the entries so far have bound the key to *)
Lemma fold_alast {S V} (step : S -> Z * Z -> S) (obs : S -> V) (val : Z -> V) j l :
  (forall s x, In x l -> obs (step s x) = if fst x =? j then val (snd x) else obs s) ->
  forall s, obs (fold_left step l s) = match alast j l None with Some r => val r | None => obs s end.
Proof.
  intros H.
  enough (G : forall d s, (forall r, d = Some r -> obs s = val r) ->
            obs (fold_left step l s) = match alast j l d with Some r => val r | None => obs s end)
    by (intros s; apply G; discriminate).
  induction l as [|x t IH]; intros d s D; cbn [fold_left alast].
  - destruct d as [r|]; [now apply D | reflexivity].
  - rewrite (IH (fun s y Hy => H s y (or_intror Hy)) (if fst x =? j then Some (snd x) else d)).
    + destruct (alast j t _) eqn:E; [reflexivity|]. apply alast_none in E. rewrite H by now left.
      destruct (fst x =? j); [discriminate E | reflexivity].
    + intros r E. rewrite H by now left. destruct (fst x =? j); [now injection E as <- | now apply D].
Qed.

(* entries (offset, register): store register at block + offset, in order; the registers are read as the stores
   proceed, and a store does not change them *)
Fixpoint wr_regs {A} (p : Z) (l : list (Z * Z)) (k : M A) (m : mach) : res mach A :=
  match l with
  | [] => k m
  | x :: t => bind (wr_word (add32 p (fst x)) (R m (snd x)) m) (fun _ m' => wr_regs p t k m')
  end.
Definition stws (m0 : mach) (p : Z) (l : list (Z * Z)) (m : mach) : mach :=
  fold_left (fun m' x => stw m' (p + fst x) (R m0 (snd x))) l m.

Lemma R_stws m0 p l m i : R (stws m0 p l m) i = R m i.
Proof. unfold stws. revert m. induction l as [|x t IH]; intros m; cbn [fold_left]; [reflexivity|]. now rewrite IH. Qed.
Lemma wf_stws m0 p l m : bus_wf (mbus m) -> bus_wf (mbus (stws m0 p l m)).
Proof.
  unfold stws. revert m. induction l as [|x t IH]; intros m W; cbn [fold_left]; [exact W|]. apply IH, wf_stw, W.
Qed.

(* entries (register, offset): load register from block + offset, in order *)
Fixpoint rd_regs {A} (p : Z) (l : list (Z * Z)) (k : M A) (m : mach) : res mach A :=
  match l with
  | [] => k m
  | x :: t => bind (rd_word (add32 p (snd x)) m) (fun v m' => rd_regs p t k (setR m' (fst x) v))
  end.
Definition lds (m0 : mach) (p : Z) (l : list (Z * Z)) (m : mach) : mach :=
  fold_left (fun m' x => setR m' (fst x) (ldw m0 (p + snd x))) l m.

Section Table.
Variables (p n : Z) (l : list (Z * Z)).
Hypothesis B : blk p n.

Lemma wr_regs_ram {A} m0 (k : M A) m :
  forallb (fun x => offok n (fst x)) l = true -> bus_wf (mbus m) -> (forall i, R m i = R m0 i) ->
  wr_regs p l k m = k (stws m0 p l m).
Proof.
  unfold stws. revert m. induction l as [|x t IH]; intros m F W E; cbn [wr_regs fold_left]; [reflexivity|].
  cbn [forallb] in F. apply andb_true_iff in F as [Fx Ft]. pose proof (blk_word _ _ _ B Fx) as Hx.
  rewrite (add32_in_ram _ _ Hx), wr_word_ram, E by assumption. cbn [bind]. apply IH; auto using wf_stw.
Qed.

Lemma ramb_stws_out m0 m a : forallb (fun x => offok n (fst x)) l = true ->
  RAMB <= a -> a < p \/ p + n <= a -> ramb (stws m0 p l m) a = ramb m a.
Proof.
  unfold stws. revert m. induction l as [|x t IH]; intros m F Ha D; cbn [fold_left]; [reflexivity|].
  cbn [forallb] in F. apply andb_true_iff in F as [Fx Ft]. destruct (blk_word _ _ _ B Fx) as [X1 [X2 _]].
  unfold offok in Fx. rewrite IH by assumption. apply ramb_stw_other; lia.
Qed.

Lemma ldw_stws m0 m o : forallb (fun x => offok n (fst x)) l = true -> offok n o = true ->
  ldw (stws m0 p l m) (p + o) = match alast o l None with Some r => w32 (R m0 r) | None => ldw m (p + o) end.
Proof.
  intros F Ho. pose proof (blk_word _ _ _ B Ho) as HO. rewrite forallb_forall in F. unfold stws.
  apply (fold_alast (fun m' x => stw m' (p + fst x) (R m0 (snd x))) (fun m' => ldw m' (p + o)) (fun r => w32 (R m0 r))).
  intros s x Hx. rewrite ldw_stw_w by (try assumption; exact (blk_word _ _ _ B (F x Hx))).
  now replace (p + o =? p + fst x) with (fst x =? o) by lia.
Qed.

Lemma rd_regs_ram {A} m0 (k : M A) m :
  forallb (fun x => offok n (snd x)) l = true -> bus_wf (mbus m) -> mbus m = mbus m0 ->
  rd_regs p l k m = k (lds m0 p l m).
Proof.
  unfold lds. revert m. induction l as [|x t IH]; intros m F W E; cbn [rd_regs fold_left]; [reflexivity|].
  cbn [forallb] in F. apply andb_true_iff in F as [Fx Ft]. pose proof (blk_word _ _ _ B Fx) as Hx.
  rewrite (add32_in_ram _ _ Hx), rd_word_ram, (ldw_same_bus m0 m) by auto. cbn [bind]. now apply IH.
Qed.
End Table.

Lemma mbus_lds m0 p l m : mbus (lds m0 p l m) = mbus m.
Proof. unfold lds. revert m. induction l as [|x t IH]; intros m; cbn [fold_left]; [reflexivity|]. now rewrite IH. Qed.

Definition regok (i : Z) : bool := (0 <=? i) && (i <=? 15).
Lemma R_setR m i j v : regok i = true -> regok j = true -> R (setR m i v) j = if i =? j then v else R m j.
Proof.
  unfold regok. intros Hi Hj. destruct (Z.eqb_spec i j) as [->|N]; [apply R_setR_same | apply R_setR_other; lia].
Qed.

Lemma R_lds m0 p l m j : forallb (fun x => regok (fst x)) l = true -> regok j = true ->
  R (lds m0 p l m) j = match alast j l None with Some o => ldw m0 (p + o) | None => R m j end.
Proof.
  intros F Hj. rewrite forallb_forall in F. unfold lds.
  apply (fold_alast (fun m' x => setR m' (fst x) (ldw m0 (p + snd x))) (fun m' => R m' j) (fun o => ldw m0 (p + o))).
  intros s x Hx. apply R_setR; auto.
Qed.
