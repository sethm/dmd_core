(* Duart::handle_command of the model (handle_command + port_command) against its statement-by-statement translation
   from /repo/src/duart.rs (Gen/GenCmd.v, regenerated on every run).  Both sides run the same three stages in
   sequence, so they are compared stage by stage, each over an arbitrary incoming state. *)
From Coq Require Import ZArith Bool.
From Dmd Require Import Model.Bits Model.Duart Gen.GenDuart Gen.GenPort Gen.GenCmd.
From Dmd Require Import Proofs.PortProofs Proofs.DuartProofs Proofs.PortTie.
Open Scope Z_scope.

(* the command in bits 6:4: one case per source `match` arm *)
Ltac x_cases x :=
  unfold gd_CR_RST_MR, gd_CR_RST_RX, gd_CR_RST_TX, gd_CR_RST_ERR, gd_CR_RST_BRK, gd_CR_START_BRK, gd_CR_STOP_BRK;
  destruct (Z.eqb_spec x 1) as [->|]; [|destruct (Z.eqb_spec x 2) as [->|]; [|destruct (Z.eqb_spec x 3) as [->|];
    [|destruct (Z.eqb_spec x 4) as [->|]; [|destruct (Z.eqb_spec x 5) as [->|]; [|destruct (Z.eqb_spec x 6) as [->|];
      [|destruct (Z.eqb_spec x 7) as [->|]]]]]]].

(* compare the first `let` of the translation with stage function s, then carry on with s d0 as the new d0 *)
Ltac stage s :=
  match goal with |- (let d := ?a in _) = _ => change a with s end;
  match s with _ ?d0 => generalize s; clear d0; intros d0 end;
  match goal with |- (let d := ?a in @?F d) = ?r => change (F a = r); cbv beta end.

Lemma port_command_is_source {A} cmd pn (p : port A) : port_command cmd p = g_cmd_port cmd pn p.
Proof.
  rewrite port_command_stages. unfold g_cmd_port. cbv zeta.
  replace (if pn =? gd_PORT_0 then _ else _) with (g_disable_rx (cmd_tx cmd p)).
  2:{ unfold cmd_tx. rewrite enable_tx_is_source, disable_tx_is_source. destruct (pn =? gd_PORT_0); reflexivity. }
  change (if negb (Z.land cmd gd_CMD_DTX =? 0) then g_disable_tx p
          else if negb (Z.land cmd gd_CMD_ETX =? 0) then g_enable_tx p else p)
    with (if bset cmd CMD_DTX then g_disable_tx p else if bset cmd CMD_ETX then g_enable_tx p else p).
  rewrite <- enable_tx_is_source, <- disable_tx_is_source. fold (cmd_tx cmd p). generalize (cmd_tx cmd p). intros p1.
  change (if negb (Z.land cmd gd_CMD_DRX =? 0) then g_disable_rx p1
          else if negb (Z.land cmd gd_CMD_ERX =? 0) then g_enable_rx p1 else p1)
    with (if bset cmd CMD_DRX then g_disable_rx p1 else if bset cmd CMD_ERX then g_enable_rx p1 else p1).
  rewrite <- enable_rx_is_source, <- disable_rx_is_source. fold (cmd_rx cmd p1). generalize (cmd_rx cmd p1). intros p2.
  unfold cmd_x. generalize (Z.land (Z.shiftr cmd 4) 7). intros x.
  x_cases x; try reflexivity. destruct (g_loopback p2); reflexivity.
Qed.

(* the interrupt-register stages commute with installing the port *)
Lemma irq_stages_with_port cmd x lb (isA : bool) ra ta dbk d p :
  irq_x x lb dbk (irq_rx cmd isA ra (irq_tx cmd ta (if isA then with_pa d p else with_pb d p)))
  = let d1 := irq_x x lb dbk (irq_rx cmd isA ra (irq_tx cmd ta d)) in if isA then with_pa d1 p else with_pb d1 p.
Proof.
  unfold irq_x, irq_rx, irq_tx.
  destruct isA; (destruct (bset cmd CMD_DTX); [|destruct (bset cmd CMD_ETX)]); destruct (bset cmd CMD_DRX);
    (destruct (x =? 5); [|destruct (_ || _); [destruct lb|]]); reflexivity.
Qed.

Theorem handle_command_is_source cmd pn d : handle_command cmd pn d = g_handle_command cmd pn d.
Proof.
  rewrite handle_command_stages. unfold g_handle_command, gd_PORT_0. cbv zeta.
  rewrite <- !(port_command_is_source cmd pn). change (g_loopback ?p) with (loopback p).
  assert (G : forall lb d0, g_cmd_duart cmd pn lb d0 =
              irq_x (Z.land (Z.shiftr cmd 4) 7) lb (if pn =? 0 then ISTS_DBA else ISTS_DBB)
                (irq_rx cmd (pn =? 0) (if pn =? 0 then ISTS_RAI else ISTS_RBI)
                   (irq_tx cmd (if pn =? 0 then ISTS_TAI else ISTS_TBI) d0))).
  { intros lb d0. cbv beta delta [g_cmd_duart gd_PORT_0]. destruct (negb (Z.land cmd gd_CMD_ERX =? 0)).
    all: stage (irq_tx cmd (if pn =? 0 then ISTS_TAI else ISTS_TBI) d0).
    all: stage (irq_rx cmd (pn =? 0) (if pn =? 0 then ISTS_RAI else ISTS_RBI) d0).
    all: cbv zeta; unfold irq_x; generalize (Z.land (Z.shiftr cmd 4) 7); intros x; x_cases x; reflexivity. }
  rewrite G. apply irq_stages_with_port.
Qed.
