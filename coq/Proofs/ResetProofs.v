(* Dmd::reset, Cpu::reset, NVRAM host/guest agreement (C16). *)
From Coq Require Import ZArith Lia Bool List ZifyBool.
From Dmd Require Import Model.Bits Model.Types Model.Fifo Model.Mem Model.Mouse Model.Duart Model.Bus
     Model.Decode Model.Cpu Model.Dmd.
From Dmd Require Import Proofs.BitsLemmas Proofs.MemProofs Proofs.BusProofs Proofs.RegKit.
Open Scope Z_scope.

(* what a ROM image looks like after loading lo at 0 and hi behind it *)
Definition image_at (lo hi : list Z) (o : Z) : Z := w8 (nth (Z.to_nat o) (lo ++ hi) 0).

Definition same_but_rom (b b' : bus) : Prop :=
  duart_ b' = duart_ b /\ mouse_ b' = mouse_ b /\ vid b' = vid b /\ bbram b' = bbram b /\ ram b' = ram b
  /\ dirty b' = dirty b.

(* Bus::load into the ROM: bypasses the read-only guard, stores the bytes one after the other *)
Lemma wf_load_rom b off l : bus_wf b -> bus_wf (with_rom b (mset_list (rom b) off l)).
Proof.
  intros [R ? ? ?]. destruct (mset_list_geom l (rom b) off) as (B & S & O).
  constructor; cbn [rom vid bbram ram with_rom]; try assumption. now rewrite B, S, O.
Qed.

Lemma bus_load_rom a l b :
  bus_wf b -> 0 <= a < 131072 -> a + Z.of_nat (length l) <= 131072 ->
  bus_load a l b = Ok tt (with_rom b (mset_list (rom b) a l)).
Proof.
  intros [(Rb & Rs & _) _ _ _] Ha Hl. unfold bus_load, with_dev. rewrite (get_device_in DRom a) by exact Ha.
  cbn [dev_mem]. unfold mem_load. rewrite Rb, Rs, Z.sub_0_r. if_lia. now rewrite mem_store_list_eq by lia.
Qed.

Definition mems_same (b b' : bus) : Prop :=
  rom b' = rom b /\ vid b' = vid b /\ bbram b' = bbram b /\ ram b' = ram b /\ dirty b' = dirty b.

Lemma bus_read_mems w a b : match bus_read w a b with Ok _ b' | Err _ b' => mems_same b b' | _ => True end.
Proof.
  pose proof (bus_read_touched w a b) as T.
  destruct (bus_read w a b); auto; destruct T as [->|[du ->]]; repeat split.
Qed.

Lemma rd_word_mems a m : match rd_word a m with Ok _ m' | Err _ m' => mems_same (mbus m) (mbus m') /\ mregs m' = mregs m | _ => True end.
Proof.
  unfold rd_word, liftb. pose proof (bus_read_mems W4 a (mbus m)) as H. cbn [bus_read] in H.
  destruct (bus_read_word a (mbus m)); cbn; auto.
Qed.

Lemma cpu_reset_mems m :
  match cpu_reset m with Ok _ m' | Err _ m' => mems_same (mbus m) (mbus m') | _ => True end.
Proof.
  (* four reads in a row, each keeping the memories (rd_word_mems); register updates do not touch the bus *)
  unfold cpu_reset.
  repeat match goal with |- context [bind (rd_word ?a ?x) _] =>
    pose proof (rd_word_mems a x); destruct (rd_word a x); cbn [bind] end.
  all: try exact I; try destruct (bset _ F_I); unfold mems_same in *; cbn [mbus setPSW setR with_regs] in *; intuition congruence.
Qed.

Section Reset.
Variable LO1 HI1 LO2 HI2 : list Z.
Hypothesis L1 : Z.of_nat (length LO1) = 32768.
Hypothesis H1 : Z.of_nat (length HI1) = 32768.
Hypothesis L2 : Z.of_nat (length LO2) = 65536.
Hypothesis H2 : Z.of_nat (length HI2) = 65536.

Definition sel_lo (v : Z) := if v =? 1 then LO1 else LO2.
Definition sel_hi (v : Z) := if v =? 1 then HI1 else HI2.
Definition image_len (v : Z) : Z := if v =? 1 then 65536 else 131072.

Lemma sel_len v : Z.of_nat (length (sel_lo v)) + Z.of_nat (length (sel_hi v)) = image_len v
                  /\ 0 < Z.of_nat (length (sel_lo v)) < 131072.
Proof. unfold sel_lo, sel_hi, image_len. destruct (v =? 1); lia. Qed.

(* the state after the two loads, before Cpu::reset *)
Lemma dmd_reset_loaded v m :
  bus_wf (mbus m) ->
  exists b2,
    dmd_reset LO1 HI1 LO2 HI2 v m = cpu_reset (with_bus m b2)
    /\ bus_wf b2 /\ same_but_rom (mbus m) b2
    /\ (forall o, 0 <= o < image_len v -> mget (rom b2) o = image_at (sel_lo v) (sel_hi v) o)
    /\ (forall o, image_len v <= o -> mget (rom b2) o = mget (rom (mbus m)) o).
Proof.
  intros W. destruct (sel_len v) as [Hs Hl].
  assert (Hle : Z.of_nat (length (sel_lo v)) + Z.of_nat (length (sel_hi v)) <= 131072)
    by (rewrite Hs; unfold image_len; destruct (v =? 1); lia).
  exists (with_rom (mbus m) (mset_list (rom (mbus m)) 0 (sel_lo v ++ sel_hi v))).
  split; [|split; [now apply wf_load_rom | split; [repeat split | cbn [rom with_rom]; split; intros o Ho]]].
  - unfold dmd_reset. fold (sel_lo v). fold (sel_hi v).
    unfold liftb at 1. rewrite bus_load_rom by (auto; lia). cbn [bind mbus with_bus].
    unfold liftb at 1. cbn [mbus with_bus]. rewrite bus_load_rom by (auto using wf_load_rom; lia).
    cbn [bind rom with_rom]. now rewrite mset_list_app.
  - rewrite mget_mset_list, app_length, Nat2Z.inj_add, Hs, Z.sub_0_r by lia. now if_lia.
  - rewrite mget_mset_list, app_length, Nat2Z.inj_add, Hs by lia. now if_lia.
Qed.

Lemma dmd_reset_image v m :
  bus_wf (mbus m) ->
  match dmd_reset LO1 HI1 LO2 HI2 v m with
  | Ok _ m' | Err _ m' =>
    (forall o, 0 <= o < image_len v -> mget (rom (mbus m')) o = image_at (sel_lo v) (sel_hi v) o)
    /\ (forall o, image_len v <= o -> mget (rom (mbus m')) o = mget (rom (mbus m)) o)
    /\ ram (mbus m') = ram (mbus m) /\ bbram (mbus m') = bbram (mbus m) /\ vid (mbus m') = vid (mbus m)
  | _ => True
  end.
Proof.
  intros W. destruct (dmd_reset_loaded v m W) as [b2 [E [W2 [S2 [G G']]]]]. rewrite E.
  pose proof (cpu_reset_mems (with_bus m b2)) as K. cbn [mbus with_bus] in K.
  destruct S2 as [_ [_ [Sv [Sn [Sr _]]]]].
  destruct (cpu_reset (with_bus m b2)) as [u m'|e m'| |]; auto;
    destruct K as [Kr [Kv [Kn [Kram _]]]]; rewrite Kr; repeat split; auto; congruence.
Qed.

End Reset.

Lemma nvram_host_guest_agree b i :
  bus_wf b -> 0 <= i < 8192 ->
  bus_read_byte (6291456 + i) b = Ok (nth (Z.to_nat i) (bus_get_nvram b) 0) b.
Proof.
  intros [_ _ (Nb & Ns & _) _] Hi. pose proof (data_read_mem W1 (6291456 + i) b DBbram) as E. cbn [bus_read mem_read aligned] in E.
  (* the address is given in full: left to unification, `rewrite` would unfold the 8192-byte slice of bus_get_nvram *)
  rewrite E by (try apply get_device_in; cbn [dev_lo dev_hi is_memdev]; lia). clear E.
  cbn [dev_mem]. rewrite (mem_read_ok W1 (bbram b)) by (unfold mend; cbn [wlast]; lia).
  unfold bus_get_nvram, NVRAM_SIZE. rewrite mem_slice_nth_z by lia. cbn [lift_r be_val]. unfold byte_at. do 2 f_equal. lia.
Qed.

Lemma set_nvram_from_eq l : forall n m i, set_nvram_from m i l n = mset_list m i (firstn n l).
Proof. induction l as [|x t IH]; intros [|n] m i; cbn [set_nvram_from firstn mset_list]; auto. Qed.

Lemma nth_firstn {A} (d : A) l : forall n k, (k < n)%nat -> nth k (firstn n l) d = nth k l d.
Proof. induction l as [|x t IH]; intros [|n] [|k] H; cbn; auto; try lia. apply IH. lia. Qed.

Lemma set_nvram_from_spec l : forall n m i,
  0 <= i ->
  let m' := set_nvram_from m i l n in
  mbase m' = mbase m /\ msize m' = msize m /\ mro m' = mro m
  /\ forall o, 0 <= o -> mget m' o =
       if (i <=? o) && (o <? i + Z.of_nat (Nat.min n (length l)))
       then w8 (nth (Z.to_nat (o - i)) l 0) else mget m o.
Proof.
  intros n m i Hi. cbn zeta. rewrite set_nvram_from_eq.
  destruct (mset_list_geom (firstn n l) m i) as (B & S & R). repeat split; auto.
  intros o Ho. rewrite mget_mset_list, firstn_length by lia. destruct (_ && _) eqn:C; [|reflexivity].
  now rewrite nth_firstn by lia.
Qed.

Lemma nvram_restore_visible l b i :
  bus_wf b -> 0 <= i < 8192 -> i < Z.of_nat (length l) ->
  let b' := bus_set_nvram l b in
  bus_wf b' /\ bus_read_byte (6291456 + i) b' = Ok (w8 (nth (Z.to_nat i) l 0)) b'
  /\ rom b' = rom b /\ ram b' = ram b /\ vid b' = vid b /\ duart_ b' = duart_ b.
Proof.
  intros W Hi Hl. cbn zeta.
  destruct (set_nvram_from_spec l (Z.to_nat NVRAM_SIZE) (bbram b) 0 ltac:(lia)) as [Hb [Hs [Hr Hg]]].
  assert (W' : bus_wf (bus_set_nvram l b)).
  { destruct W as [Wr Wv [Nb [Ns Nr]] Wram]. constructor; cbn [bus_set_nvram rom vid bbram ram with_bbram]; auto. rewrite Hb, Hs, Hr. auto. }
  split; [exact W'|]. split; [|repeat split].
  rewrite (nvram_host_guest_agree _ i W' Hi). f_equal.
  unfold bus_get_nvram, NVRAM_SIZE. rewrite mem_slice_nth_z by lia.
  cbn [bbram bus_set_nvram with_bbram]. rewrite Hg by lia. rewrite Z.add_0_l, Z.sub_0_r.
  unfold NVRAM_SIZE. now if_lia.
Qed.

