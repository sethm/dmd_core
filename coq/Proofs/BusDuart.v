(* The DUART behind the bus: every guest data access (byte / halfword / word, read / write, any address, any value)
   acts on the DUART as the device operations `bacc_dops` names -- one register read or write when the access is
   aligned and decodes to the DUART's 64 bytes (a halfword at a is the register at a+2, a word the register at a+3),
   and nothing otherwise.  With DeviceRefine.v this carries the per-channel history theorems from port operations to
   guest addresses. *)
From Coq Require Import ZArith Lia Bool List.
From Dmd Require Import Model.Bits Model.Mem Model.Duart Model.Bus.
From Dmd Require Import Proofs.PortProofs Proofs.DuartProofs Proofs.BusProofs Proofs.DeviceRefine.
Import ListNotations.
Open Scope Z_scope.

Inductive bacc :=
| ARb (a : Z) | ARh (a : Z) | ARw (a : Z) | AWb (a v : Z) | AWh (a v : Z) | AWw (a v : Z).

Definition st_of {A} (b : bus) (r : res bus A) : bus :=
  match r with Ok _ s | Err _ s => s | _ => b end.

Definition bus_do (x : bacc) (b : bus) : bus :=
  match x with
  | ARb a => st_of b (bus_read_byte a b)
  | ARh a => st_of b (bus_read_half a b)
  | ARw a => st_of b (bus_read_word a b)
  | AWb a v => st_of b (bus_write_byte a v b)
  | AWh a v => st_of b (bus_write_half a v b)
  | AWw a v => st_of b (bus_write_word a v b)
  end.

Definition DUART_BASE := 2097152.    (* 0x200000 *)
Definition in_duart (a : Z) : bool := (DUART_BASE <=? a) && (a <? DUART_BASE + 64).

Definition bacc_dops (x : bacc) : list dop :=
  match x with
  | ARb a => if in_duart a then [DRead (a - DUART_BASE)] else []
  | ARh a => if in_duart a && (Z.land a 1 =? 0) then [DRead (a + 2 - DUART_BASE)] else []
  | ARw a => if in_duart a && (Z.land a 3 =? 0) then [DRead (a + 3 - DUART_BASE)] else []
  | AWb a v => if in_duart a then [DWrite (a - DUART_BASE) (w8 v)] else []
  | AWh a v => if in_duart a && (Z.land a 1 =? 0) then [DWrite (a + 2 - DUART_BASE) (w8 (w16 v))] else []
  | AWw a v => if in_duart a && (Z.land a 3 =? 0) then [DWrite (a + 3 - DUART_BASE) (w8 (w32 v))] else []
  end.

Lemma get_device_duart a : in_duart a = true -> get_device a = Some DDuart.
Proof.
  unfold in_duart, DUART_BASE, get_device. intros H. apply andb_true_iff in H as [H1 H2].
  apply Z.leb_le in H1. apply Z.ltb_lt in H2.
  destruct (Z.ltb_spec a 131072); [lia|].
  destruct (Z.leb_spec 2097152 a); [|lia]. destruct (Z.ltb_spec a 2097216); [|lia]. reflexivity.
Qed.

Lemma get_device_not_duart a : in_duart a = false -> get_device a <> Some DDuart.
Proof.
  unfold in_duart, DUART_BASE. intros H G. apply get_device_range in G.
  apply andb_false_iff in H as [H|H]; [apply Z.leb_gt in H | apply Z.ltb_ge in H]; cbn in G; lia.
Qed.

Lemma mark_dirty_duart a b : duart_ (mark_dirty a b) = duart_ b.
Proof. unfold mark_dirty. destruct (is_video_ram b a); reflexivity. Qed.

Lemma lift_r_duart {A} b0 b (r : rres A) : duart_ b0 = duart_ b -> duart_ (st_of b0 (lift_r b r)) = duart_ b.
Proof. destruct r; auto. Qed.
Lemma dev_write_mem_duart d b0 b r : duart_ b0 = duart_ b -> duart_ (st_of b0 (dev_write_mem d b r)) = duart_ b.
Proof. destruct r; auto. destruct d; auto. Qed.

Lemma with_dev_duart {A} a b0 b (k : device -> res bus A) ops :
  duart_ (st_of b0 (k DDuart)) = drun ops (duart_ b) ->
  (forall d, d <> DDuart -> duart_ (st_of b0 (k d)) = duart_ b) ->
  duart_ (st_of b0 (with_dev a b k)) = drun (if in_duart a then ops else []) (duart_ b).
Proof.
  intros HD HO. unfold with_dev. destruct (in_duart a) eqn:D.
  - rewrite (get_device_duart a D). exact HD.
  - destruct (get_device a) as [d|] eqn:G; [|reflexivity]. apply HO. intros ->. exact (get_device_not_duart a D G).
Qed.

Lemma dev_read_byte_duart a b :
  duart_ (st_of b (dev_read_byte DDuart a b)) = drun [DRead (a - DUART_BASE)] (duart_ b).
Proof.
  cbn [dev_read_byte drun dstep]. unfold DUART_BASE.
  destruct (duart_read_byte (a - 2097152) (duart_ b)) as [[v du]| |]; reflexivity.
Qed.

Theorem bus_do_duart x b : duart_ (bus_do x b) = drun (bacc_dops x) (duart_ b).
Proof.
  pose proof (mark_dirty_duart) as M.
  destruct x; cbn [bus_do bacc_dops];
    unfold bus_read_byte, bus_read_half, bus_read_word, bus_write_byte, bus_write_half, bus_write_word; cbv zeta.
  - apply with_dev_duart; [apply dev_read_byte_duart|].
    intros d N. destruct d; try congruence; apply lift_r_duart || reflexivity; reflexivity.
  - destruct (Z.land a 1 =? 0); cbn [negb]; [rewrite andb_true_r | rewrite andb_false_r; reflexivity].
    apply with_dev_duart; [apply dev_read_byte_duart|].
    intros d N. destruct d; try congruence; apply lift_r_duart; reflexivity.
  - destruct (Z.land a 3 =? 0); cbn [negb]; [rewrite andb_true_r | rewrite andb_false_r; reflexivity].
    apply with_dev_duart; [apply dev_read_byte_duart|].
    intros d N. destruct d; try congruence; apply lift_r_duart || reflexivity; reflexivity.
  - rewrite <- (M a b). apply with_dev_duart; [reflexivity|].
    intros d N. destruct d; try congruence; apply dev_write_mem_duart || reflexivity; now rewrite M.
  - destruct (Z.land a 1 =? 0); cbn [negb]; [rewrite andb_true_r | rewrite andb_false_r; reflexivity].
    rewrite <- (M a b). apply with_dev_duart; [reflexivity|].
    intros d N. destruct d; try congruence; apply dev_write_mem_duart || reflexivity; now rewrite M.
  - destruct (Z.land a 3 =? 0); cbn [negb]; [rewrite andb_true_r | rewrite andb_false_r; reflexivity].
    rewrite <- (M a b). apply with_dev_duart; [reflexivity|].
    intros d N. destruct d; try congruence; apply dev_write_mem_duart || reflexivity; now rewrite M.
Qed.

Lemma bus_read_byte_duart_value a b :
  in_duart a = true ->
  bus_read_byte a b = match duart_read_byte (a - DUART_BASE) (duart_ b) with
                      | ROk (v, du) => Ok (w8 v) (with_duart b du)
                      | RErr e => Err (EBus e) b
                      | RPanic => Panic end.
Proof. intros D. unfold bus_read_byte, with_dev. rewrite (get_device_duart a D). reflexivity. Qed.

(* histories: guest accesses interleaved with the host-side and time-driven device operations *)
Inductive sysop := SGuest (x : bacc) | SDev (o : dop).

Definition sys_step (s : sysop) (b : bus) : bus :=
  match s with SGuest x => bus_do x b | SDev o => with_duart b (dstep o (duart_ b)) end.
Definition sys_dops (s : sysop) : list dop :=
  match s with SGuest x => bacc_dops x | SDev o => [o] end.

Lemma drun_app l1 l2 d : drun (l1 ++ l2) d = drun l2 (drun l1 d).
Proof. revert d. induction l1 as [|o t IH]; intros d; cbn; [reflexivity | apply IH]. Qed.

Theorem sys_run_duart ops b :
  duart_ (fold_left (fun s o => sys_step o s) ops b) = drun (flat_map sys_dops ops) (duart_ b).
Proof.
  revert b. induction ops as [|s t IH]; intros b; cbn [fold_left flat_map]; [reflexivity|].
  rewrite IH, drun_app. f_equal. destruct s; cbn [sys_step sys_dops]; [apply bus_do_duart | reflexivity].
Qed.

