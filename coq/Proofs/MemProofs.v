(* Memory lemmas: the sparse map behaves as a byte array (C11 foundation). *)
From Coq Require Import ZArith Lia Bool List ZifyBool FSets.FMapPositive.
From Dmd Require Import Model.Bits Model.Mem Proofs.BitsLemmas.
Open Scope Z_scope.

Ltac if_lia :=
  match goal with
  | |- context [if ?c then _ else _] => first [replace c with true by lia | replace c with false by lia]
  end.

Lemma mget_mset_same m off v : mget (mset m off v) off = v.
Proof. unfold mget, mset; cbn. now rewrite PositiveMap.gss. Qed.

Lemma mget_mset_other m off off' v :
  0 <= off -> 0 <= off' -> off <> off' -> mget (mset m off v) off' = mget m off'.
Proof.
  intros H1 H2 H3. unfold mget, mset; cbn. rewrite PositiveMap.gso; [reflexivity|].
  intro E. apply H3. apply (f_equal Z.pos) in E. rewrite !Z2Pos.id in E by lia. lia.
Qed.

Lemma mset_base m off v : mbase (mset m off v) = mbase m. Proof. reflexivity. Qed.
Lemma mset_size m off v : msize (mset m off v) = msize m. Proof. reflexivity. Qed.
Lemma mset_ro m off v : mro (mset m off v) = mro m. Proof. reflexivity. Qed.
Lemma mset_end m off v : mend (mset m off v) = mend m. Proof. reflexivity. Qed.
Lemma in_vec_mset m off v o : in_vec (mset m off v) o = in_vec m o. Proof. reflexivity. Qed.

Lemma in_vec_spec m o : in_vec m o = true <-> 0 <= o < msize m.
Proof. unfold in_vec. lia. Qed.

Definition byte_at (m : mem) (a : Z) : Z := mget m (a - mbase m).

Definition bytes_ok (m : mem) : Prop := forall x, 0 <= byte_at m x < 256.

Lemma mem_slice_length m off n : length (mem_slice m off n) = n.
Proof. revert off; induction n as [|n IH]; intros off; cbn; [reflexivity|]. now rewrite IH. Qed.

Lemma mem_slice_nth m n : forall off i, (i < n)%nat ->
  nth_error (mem_slice m off n) i = Some (mget m (off + Z.of_nat i)).
Proof.
  induction n as [|n IH]; intros off i Hi; [lia|].
  destruct i as [|i]; cbn [mem_slice nth_error].
  - f_equal. f_equal. lia.
  - rewrite IH by lia. f_equal. f_equal. lia.
Qed.

Lemma mem_slice_nth_z m n off i : 0 <= i < Z.of_nat n ->
  nth (Z.to_nat i) (mem_slice m off n) 0 = mget m (off + i).
Proof. intros Hi. apply nth_error_nth. rewrite mem_slice_nth by lia. do 2 f_equal. lia. Qed.

(* a run of bytes stored at consecutive offsets: what Mem::load, Bus::set_nvram and the half / word
   writes all do *)
Fixpoint mset_list (m : mem) (off : Z) (l : list Z) : mem :=
  match l with [] => m | x :: t => mset_list (mset m off (w8 x)) (off + 1) t end.

Lemma mset_list_geom l : forall m off,
  mbase (mset_list m off l) = mbase m /\ msize (mset_list m off l) = msize m /\ mro (mset_list m off l) = mro m.
Proof. induction l as [|x t IH]; intros m off; cbn [mset_list]; [auto|]. exact (IH (mset m off (w8 x)) (off + 1)). Qed.

Lemma mget_mset_list l : forall m off o, 0 <= off -> 0 <= o ->
  mget (mset_list m off l) o =
    if (off <=? o) && (o <? off + Z.of_nat (length l)) then w8 (nth (Z.to_nat (o - off)) l 0) else mget m o.
Proof.
  induction l as [|x t IH]; intros m off o Hf Ho; cbn [mset_list length].
  - replace (_ && _) with false by lia. reflexivity.
  - rewrite IH by lia. destruct (Z.eq_dec o off) as [->|N].
    + replace (_ && _) with false by lia. replace (_ && _) with true by lia.
      now rewrite mget_mset_same, Z.sub_diag.
    + rewrite mget_mset_other by lia.
      destruct ((off + 1 <=? o) && _) eqn:C; [replace (_ && _) with true by lia | replace (_ && _) with false by lia].
      * replace (Z.to_nat (o - off)) with (S (Z.to_nat (o - (off + 1)))) by lia. reflexivity.
      * reflexivity.
Qed.

Lemma mset_list_app l1 : forall m off l2,
  mset_list m off (l1 ++ l2) = mset_list (mset_list m off l1) (off + Z.of_nat (length l1)) l2.
Proof.
  induction l1 as [|x t IH]; intros m off l2; cbn [app mset_list length]; [now rewrite Z.add_0_r|].
  rewrite IH. f_equal. lia.
Qed.

Lemma mset_list_byte m off l o : 0 <= off -> 0 <= o -> 0 <= mget m o < 256 -> 0 <= mget (mset_list m off l) o < 256.
Proof. intros Hf Ho H. rewrite mget_mset_list by assumption. destruct (_ && _); [apply w8_range | exact H]. Qed.

Lemma mem_store_list_eq l : forall m off, 0 <= off -> off + Z.of_nat (length l) <= msize m ->
  mem_store_list m off l = Some (mset_list m off l).
Proof.
  induction l as [|x t IH]; intros m off Hf Hl; cbn [mem_store_list mset_list length] in *; [reflexivity|].
  replace (in_vec m off) with true by (unfold in_vec; lia). apply IH; cbn [mset msize]; lia.
Qed.

Inductive width := W1 | W2 | W4.
Definition wlast (w : width) (a : Z) : Z := match w with W1 => a | W2 => a + 1 | W4 => a + 3 end.
Definition wtrunc (w : width) : Z -> Z := match w with W1 => w8 | W2 => w16 | W4 => w32 end.
Definition be_bytes (w : width) (v : Z) : list Z :=
  match w with W1 => [v] | W2 => [v / 256; v] | W4 => [v / 16777216; v / 65536; v / 256; v] end.
Definition be_val (w : width) (f : Z -> Z) (a : Z) : Z :=
  match w with
  | W1 => f a
  | W2 => f a * 256 + f (a + 1)
  | W4 => f a * 16777216 + f (a + 1) * 65536 + f (a + 2) * 256 + f (a + 3)
  end.
Definition mem_read (w : width) : mem -> Z -> rres Z :=
  match w with W1 => mem_read_byte | W2 => mem_read_half | W4 => mem_read_word end.
Definition mem_write (w : width) : mem -> Z -> Z -> rres mem :=
  match w with W1 => mem_write_byte | W2 => mem_write_half | W4 => mem_write_word end.

(* Range first, then the vector index: below the base the index is out of the vector (a panic in the source) *)
Lemma mem_read_nf w m a :
  mem_read w m a = if wlast w a >=? mend m then RErr BRange
                   else if mbase m <=? a then ROk (be_val w (byte_at m) a) else RPanic.
Proof.
  destruct w; cbn [mem_read wlast be_val]; unfold mem_read_byte, mem_read_half, mem_read_word, byte_at, in_vec, mend.
  all: match goal with |- context [?x >=? ?y] => destruct (x >=? y) eqn:E end; [reflexivity|].
  all: match goal with |- (if ?c then _ else _) = _ => replace c with (mbase m <=? a) by lia end.
  all: now rewrite ?Z.add_sub_swap.
Qed.

Lemma mem_write_nf w m a v :
  mem_write w m a v = if mro m then RErr BWrite else if wlast w a >=? mend m then RErr BRange
                      else if mbase m <=? a then ROk (mset_list m (a - mbase m) (be_bytes w v)) else RPanic.
Proof.
  destruct w; cbn [mem_write wlast be_bytes mset_list]; unfold mem_write_byte, mem_write_half, mem_write_word, in_vec, mend.
  all: destruct (mro m); [reflexivity|].
  all: match goal with |- context [?x >=? ?y] => destruct (x >=? y) eqn:E end; [reflexivity|].
  all: match goal with |- (if ?c then _ else _) = _ => replace c with (mbase m <=? a) by lia end.
  all: now rewrite <- ?Z.add_assoc.
Qed.

Lemma mem_read_ok w m a : mbase m <= a -> wlast w a < mend m -> mem_read w m a = ROk (be_val w (byte_at m) a).
Proof. intros. rewrite mem_read_nf. now replace (_ >=? _) with false by lia; replace (_ <=? _) with true by lia. Qed.

Lemma mem_read_inv w m a v : mem_read w m a = ROk v ->
  mbase m <= a /\ wlast w a < mend m /\ v = be_val w (byte_at m) a.
Proof.
  rewrite mem_read_nf. destruct (_ >=? _) eqn:E; [discriminate|]. destruct (_ <=? _) eqn:L; [|discriminate].
  intros [= <-]. lia.
Qed.

Lemma mem_write_inv w m a v m' : mem_write w m a v = ROk m' ->
  mro m = false /\ mbase m <= a /\ wlast w a < mend m /\ m' = mset_list m (a - mbase m) (be_bytes w v).
Proof.
  rewrite mem_write_nf. destruct (mro m); [discriminate|]. destruct (_ >=? _) eqn:E; [discriminate|].
  destruct (_ <=? _) eqn:L; [|discriminate]. intros [= <-]. repeat split; lia.
Qed.

Lemma byte_at_mset_list m a l x : mbase m <= a -> mbase m <= x ->
  byte_at (mset_list m (a - mbase m) l) x =
    if (a <=? x) && (x <? a + Z.of_nat (length l)) then w8 (nth (Z.to_nat (x - a)) l 0) else byte_at m x.
Proof.
  intros Ha Hx. unfold byte_at. rewrite (proj1 (mset_list_geom _ _ _)), mget_mset_list by lia.
  replace (x - mbase m - (a - mbase m)) with (x - a) by lia.
  destruct ((a <=? x) && _) eqn:C; [replace (_ && _) with true by lia | replace (_ && _) with false by lia]; reflexivity.
Qed.

(* after inversion of a successful write: evaluates byte_at of the result at a + k or at an address outside *)
Ltac stored := rewrite byte_at_mset_list by lia; cbn [length be_bytes];
  first [ replace (_ && _) with false by lia; reflexivity
        | replace (_ && _) with true by lia; rewrite ?Z.sub_diag, ?Z.add_simpl_l; reflexivity ].

Lemma be_join w v : be_val w (fun i => w8 (nth (Z.to_nat i) (be_bytes w v) 0)) 0 = wtrunc w v.
Proof. destruct w; cbn [be_val be_bytes wtrunc Z.add]; simpl nth; unfold w8, w16, w32; Z.div_mod_to_equations; lia. Qed.

Lemma write_read w m a v m' : mem_write w m a v = ROk m' -> mem_read w m' a = ROk (wtrunc w v).
Proof.
  intros H. apply mem_write_inv in H as (R & L & U & ->).
  destruct (mset_list_geom (be_bytes w v) m (a - mbase m)) as (B & S & O).
  rewrite mem_read_ok by (unfold mend in *; rewrite ?B, ?S; lia). f_equal. rewrite <- be_join.
  destruct w; cbn [be_val wlast] in *; rewrite !byte_at_mset_list by lia; cbn [length be_bytes];
    repeat (replace (_ && _) with true by lia); now rewrite ?Z.sub_diag, ?Z.add_simpl_l.
Qed.

