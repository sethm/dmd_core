(* C06: arbitrary nestings of push / pop, subroutine entry / return, CALL / RET and SAVE / RESTORE.
   Each instruction is summarised by a contract (what it does to SP / FP / AP / r3-r8 and to stack memory); the
   contracts are proved of the dispatch arms in Props/C06.v; `nest` is the inductive family of balanced
   nestings built from the contracts; `nest_frame_kept` shows by induction on the nesting -- any depth, any order --
   that a balanced nest leaves SP, FP, AP, r3-r8 and every stack byte below the initial SP exactly as they were,
   and the corollaries (here and in C06) give the values that come back (return address, popped word). *)
From Coq Require Import ZArith Lia Bool List.
From Dmd Require Import Model.Bits Model.Types Model.Mem Model.Bus Model.Decode Model.Cpu.
From Dmd Require Import Proofs.BitsLemmas Proofs.BusProofs Proofs.RegKit Proofs.MachKit Proofs.LinkageProofs.
Open Scope Z_scope.

Definition below_eq (s : Z) (m m' : mach) : Prop := forall a, RAMB <= a -> a < s -> ramb m' a = ramb m a.

Lemma below_eq_refl s m : below_eq s m m.
Proof. intros a _ _. reflexivity. Qed.
Lemma below_eq_trans s a b c : below_eq s a b -> below_eq s b c -> below_eq s a c.
Proof. intros H1 H2 x Hx Hs. rewrite H2, H1; auto. Qed.
Lemma below_eq_weaken s s' a b : s' <= s -> below_eq s a b -> below_eq s' a b.
Proof. intros L H x Hx Hs. apply H; lia. Qed.
Lemma below_eq_ldw s m m' a : below_eq s m m' -> RAMB <= a -> a + 4 <= s -> ldw m' a = ldw m a.
Proof. intros H Ha Hs. apply ldw_ext. intros x Hx. apply H; lia. Qed.
Lemma below_eq_same_bus s m m' : mbus m' = mbus m -> below_eq s m m'.
Proof. intros E a _ _. unfold ramb. now rewrite E. Qed.

(* the registers a callee must preserve *)
Definition keeps_regs (m m' : mach) : Prop :=
  forall i, 3 <= i <= 14 -> i <> 11 -> i <> 12 -> R m' i = R m i.

Record frame_kept (m m' : mach) : Prop := {
  fk_wf : bus_wf (mbus m');
  fk_sp : R m' R_SP = R m R_SP;
  fk_regs : keeps_regs m m';
  fk_below : below_eq (R m R_SP) m m' }.

(* instructions that touch only r0-r2, the PSW and the PC *)
Definition leaf (m m' : mach) : Prop := mbus m' = mbus m /\ R m' R_SP = R m R_SP /\ keeps_regs m m'.
(* PUSHW v and the subroutine entries (which push the return address) *)
Definition push_like (m : mach) (v : Z) (m1 : mach) : Prop :=
  bus_wf (mbus m1) /\ R m1 R_SP = R m R_SP + 4 /\ ldw m1 (R m R_SP) = w32 v /\ keeps_regs m m1
  /\ below_eq (R m R_SP) m m1.
(* POPW into r0-r2 and RSB: the word below SP goes to `dst` (a scratch register or the PC) *)
Definition pop_like (m2 : mach) (dst : Z) (m3 : mach) : Prop :=
  mbus m3 = mbus m2 /\ R m3 R_SP = R m2 R_SP - 4 /\ keeps_regs m2 m3 /\ R m3 dst = ldw m2 (R m2 R_SP - 4).
Definition call_like (m : mach) (a ret : Z) (m1 : mach) : Prop :=
  bus_wf (mbus m1) /\ R m1 R_SP = R m R_SP + 8 /\ R m1 R_AP = a
  /\ ldw m1 (R m R_SP) = w32 ret /\ ldw m1 (R m R_SP + 4) = R m R_AP
  /\ (forall i, 3 <= i <= 14 -> i <> 10 -> i <> 11 -> i <> 12 -> R m1 i = R m i)
  /\ below_eq (R m R_SP) m m1.
Definition ret_like (m2 m3 : mach) : Prop :=
  mbus m3 = mbus m2 /\ R m3 R_SP = R m2 R_AP /\ R m3 R_AP = ldw m2 (R m2 R_SP - 4)
  /\ R m3 R_PC = ldw m2 (R m2 R_SP - 8)
  /\ (forall i, 3 <= i <= 14 -> i <> 10 -> i <> 11 -> i <> 12 -> R m3 i = R m2 i).
Definition save_like (m : mach) (r : Z) (m1 : mach) : Prop :=
  bus_wf (mbus m1) /\ R m1 R_SP = R m R_SP + 28 /\ R m1 R_FP = R m R_SP + 28
  /\ ldw m1 (R m R_SP) = R m R_FP
  /\ (forall k, r <= k <= 8 -> ldw m1 (R m R_SP + 4 + 4 * (k - r)) = R m k)
  /\ (forall i, 3 <= i <= 14 -> i <> 9 -> i <> 11 -> i <> 12 -> R m1 i = R m i)
  /\ below_eq (R m R_SP) m m1.
Definition restore_like (m2 : mach) (r : Z) (m3 : mach) : Prop :=
  mbus m3 = mbus m2 /\ R m3 R_SP = R m2 R_FP - 28 /\ R m3 R_FP = ldw m2 (R m2 R_FP - 28)
  /\ (forall k, r <= k <= 8 -> R m3 k = ldw m2 (R m2 R_FP - 24 + 4 * (k - r)))
  /\ (forall i, 3 <= i <= 14 -> i <> 9 -> i <> 11 -> i <> 12 -> (i < r \/ 8 < i) -> R m3 i = R m2 i).
(* code between SAVE %r and the nested body may overwrite the saved registers r..r8 *)
Definition clobber (r : Z) (m m' : mach) : Prop :=
  mbus m' = mbus m /\ R m' R_SP = R m R_SP
  /\ (forall i, 3 <= i <= 14 -> i <> 11 -> i <> 12 -> (i < r \/ 8 < i) -> R m' i = R m i).

(* PUSHW of the arguments before a CALL: SP moves up, nothing below the old SP is written *)
Definition args_pushed (m0 m : mach) : Prop :=
  bus_wf (mbus m) /\ R m0 R_SP <= R m R_SP /\ keeps_regs m0 m /\ below_eq (R m0 R_SP) m0 m.

Inductive nest : mach -> mach -> Prop :=
| N_nil m : bus_wf (mbus m) -> nest m m
| N_leaf m m' : bus_wf (mbus m) -> leaf m m' -> nest m m'
| N_seq m1 m2 m3 : nest m1 m2 -> nest m2 m3 -> nest m1 m3
| N_push m v m1 m2 dst m3 :
    RAMB <= R m R_SP -> push_like m v m1 -> nest m1 m2 -> (0 <= dst <= 2 \/ dst = 15) -> pop_like m2 dst m3 -> nest m m3
| N_call m0 m ret m1 m2 m3 :
    RAMB <= R m0 R_SP -> args_pushed m0 m -> call_like m (R m0 R_SP) ret m1 -> nest m1 m2 -> ret_like m2 m3 -> nest m0 m3
| N_save m r m1 m1' m2 m3 :
    RAMB <= R m R_SP -> 3 <= r <= 9 -> save_like m r m1 -> clobber r m1 m1' -> nest m1' m2 -> restore_like m2 r m3 ->
    nest m m3.

Lemma keeps_regs_refl m : keeps_regs m m.
Proof. intros i _ _ _. reflexivity. Qed.
Lemma keeps_regs_trans a b c : keeps_regs a b -> keeps_regs b c -> keeps_regs a c.
Proof. intros H1 H2 i Hi N1 N2. rewrite H2, H1; auto. Qed.

Lemma frame_kept_refl m : bus_wf (mbus m) -> frame_kept m m.
Proof. intros W. constructor; auto. apply keeps_regs_refl. apply below_eq_refl. Qed.

Lemma frame_kept_trans a b c : frame_kept a b -> frame_kept b c -> frame_kept a c.
Proof.
  intros [W1 S1 K1 B1] [W2 S2 K2 B2]. constructor; auto.
  - congruence.
  - eapply keeps_regs_trans; eauto.
  - eapply below_eq_trans; [exact B1|]. rewrite S1 in B2. exact B2.
Qed.

Theorem nest_frame_kept m m' : nest m m' -> frame_kept m m'.
Proof.
  induction 1 as [m W | m m' W [Eb [Es Ek]] | m1 m2 m3 _ IH1 _ IH2
                  | m v m1 m2 dst m3 Hsp [W1 [S1 [L1 [K1 B1]]]] _ IH Hd [Eb [S3 [K3 V3]]]
                  | m0 m ret m1 m2 m3 Hsp [Wa [Sa [Ka Ba]]] [W1 [S1 [A1 [L0 [L4 [K1 B1]]]]]] _ IH [Eb [S3 [A3 [P3 K3]]]]
                  | m r m1 m1' m2 m3 Hsp Hr [W1 [S1 [F1 [L0 [Lk [K1 B1]]]]]] [Ec [Sc Kc]] _ IH [Eb [S3 [F3 [Rk Ro]]]]].
  - now apply frame_kept_refl.
  - constructor; auto; [rewrite Eb; exact W | now apply below_eq_same_bus].
  - eapply frame_kept_trans; eauto.
  - (* push; nest; pop *)
    destruct IH as [W2 S2 K2 B2]. constructor.
    + rewrite Eb. exact W2.
    + rewrite S3, S2, S1. lia.
    + eapply keeps_regs_trans; [exact K1|]. eapply keeps_regs_trans; [exact K2|exact K3].
    + eapply below_eq_trans; [exact B1|]. eapply below_eq_trans.
      * eapply below_eq_weaken; [|exact B2]. lia.
      * now apply below_eq_same_bus.
  - (* args; CALL; nest; RET *)
    destruct IH as [W2 S2 K2 B2]. constructor.
    + rewrite Eb. exact W2.
    + rewrite S3. unfold R_AP in *. rewrite (K2 10) by lia. exact A1.
    + intros i Hi N11 N12. destruct (Z.eq_dec i 10) as [->|N10].
      * unfold R_AP in *. rewrite A3, S2, S1. replace (R m R_SP + 8 - 4) with (R m R_SP + 4) by lia.
        rewrite (below_eq_ldw _ _ _ _ B2) by lia. rewrite L4. apply (Ka 10); lia.
      * rewrite K3, K2, K1 by lia. apply Ka; lia.
    + eapply below_eq_trans; [exact Ba|]. eapply below_eq_trans; [eapply below_eq_weaken; [|exact B1]; lia|].
      eapply below_eq_trans; [eapply below_eq_weaken; [|exact B2]; lia|]. now apply below_eq_same_bus.
  - (* SAVE; clobber; nest; RESTORE *)
    destruct IH as [W2 S2 K2 B2].
    assert (F2 : R m2 R_FP = R m R_SP + 28).
    { unfold R_FP in *. rewrite (K2 9) by lia. rewrite (Kc 9) by lia. exact F1. }
    assert (B12 : below_eq (R m R_SP + 28) m1 m2).
    { eapply below_eq_trans; [apply below_eq_same_bus; exact Ec|]. rewrite Sc, S1 in B2. exact B2. }
    constructor.
    + rewrite Eb. exact W2.
    + rewrite S3, F2. lia.
    + intros i Hi N11 N12. destruct (Z.eq_dec i 9) as [->|N9].
      * unfold R_FP in *. rewrite F3, F2. replace (R m R_SP + 28 - 28) with (R m R_SP) by lia.
        rewrite (below_eq_ldw _ _ _ _ B12) by lia. exact L0.
      * destruct (Z_le_dec r i) as [Hri|Hri]; [destruct (Z_le_dec i 8) as [Hi8|Hi8]|].
        -- rewrite Rk by lia. rewrite F2.
           replace (R m R_SP + 28 - 24 + 4 * (i - r)) with (R m R_SP + 4 + 4 * (i - r)) by lia.
           rewrite (below_eq_ldw _ _ _ _ B12) by lia. apply Lk; lia.
        -- rewrite Ro, K2, Kc, K1 by lia. reflexivity.
        -- rewrite Ro, K2, Kc, K1 by lia. reflexivity.
    + eapply below_eq_trans; [exact B1|]. eapply below_eq_trans; [eapply below_eq_weaken; [|exact B12]; lia|].
      now apply below_eq_same_bus.
Qed.

Corollary push_nest_pop_value m v m1 m2 dst m3 :
  RAMB <= R m R_SP -> push_like m v m1 -> nest m1 m2 -> pop_like m2 dst m3 -> R m3 dst = w32 v.
Proof.
  intros Hsp [W1 [S1 [L1 [K1 B1]]]] N [Eb [S3 [K3 V3]]]. destruct (nest_frame_kept _ _ N) as [W2 S2 K2 B2].
  rewrite V3, S2, S1. replace (R m R_SP + 4 - 4) with (R m R_SP) by lia.
  rewrite (below_eq_ldw _ _ _ _ B2) by lia. exact L1.
Qed.

Lemma pushed_push_like m v : bus_wf (mbus m) -> in_ram_w (R m R_SP) -> push_like m v (pushed m v).
Proof.
  intros W Hs. pose proof Hs as [Hs1 _]. unfold push_like. splits.
  - now apply wf_pushed.
  - now apply R_pushed_sp_ram.
  - now apply ldw_pushed_top.
  - intros i Hi N1 N2. apply R_pushed_other; lia.
  - intros a Ha Hl. apply ramb_pushed_other; lia.
Qed.

Lemma push_like_then_flags m v m1 m1' :
  push_like m v m1 -> mbus m1' = mbus m1 -> (forall i, 0 <= i <= 14 -> i <> 11 -> R m1' i = R m1 i) -> push_like m v m1'.
Proof.
  intros [W1 [S1 [L1 [K1 B1]]]] Eb Er. unfold push_like. splits.
  - now rewrite Eb.
  - rewrite Er by (unfold R_SP; lia). exact S1.
  - now rewrite (ldw_same_bus m1).
  - intros i Hi N1 N2. rewrite Er by lia. now apply K1.
  - intros a Ha Hl. unfold ramb. rewrite Eb. now apply B1.
Qed.

(* the premises can be met: push 7 on any stack in RAM and pop it into r0 *)
Example nest_example (m : mach) :
  bus_wf (mbus m) -> in_ram_w (R m R_SP) -> 4 <= R m R_SP + 4 < 4294967296 ->
  let m1 := pushed m 7 in
  forall m3, pop_like m1 0 m3 -> nest m m3 /\ R m3 0 = 7.
Proof.
  intros W Hs Hsp m1 m3 P. pose proof Hs as [Hs1 _].
  assert (PL : push_like m 7 m1) by (now apply pushed_push_like).
  assert (N1 : nest m1 m1) by (apply N_nil; now apply wf_pushed).
  split.
  - apply (N_push m 7 m1 m1 0 m3); auto; lia.
  - now rewrite (push_nest_pop_value m 7 m1 m1 0 m3 Hs1 PL N1 P).
Qed.
