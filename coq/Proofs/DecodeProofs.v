(* The decoder: opcode tables = architected map (the row checks); run on two agreeing byte sources it gives the
   same result, never panics, never runs out of fuel, consumes at most 26 bytes and yields constants of 32 bits;
   decoding a byte string; the reserved descriptors (C04, C12). *)
From Coq Require Import ZArith Lia Bool List ZifyBool.
From Dmd Require Import Model.Bits Model.Types Gen.GenOpcodes Model.Decode Spec.ArchOpcodes.
Open Scope Z_scope.

Definition kind_of (o : optype) : option okind :=
  match o with OLit => Some KLit | OSrc | ODest => Some KDesc | ONone => None end.
Fixpoint kinds (l : list optype) : list okind :=
  match l with [] => [] | o :: t => match kind_of o with Some k => k :: kinds t | None => kinds t end end.

(* what a table row says, as the spec sees it *)
Definition row_view (m : mnemonic) : Z * dtype * list okind := (mn_opcode m, mn_dtype m, kinds (mn_ops m)).

Definition view_eq_dec (a b : option (Z * dtype * list okind)) : {a = b} + {a <> b}.
Proof. repeat decide equality. Defined.

(* one first byte, one second byte after the 0x30 escape: the row's view is the architected entry *)
Definition byte_row_ok (b1 : Z) : bool :=
  if view_eq_dec (option_map row_view (lookup_mnemonic b1 None))
                 (option_map (fun p => (b1, fst p, snd p)) (arch_lookup arch_opcodes b1)) then true else false.
Definition half_row_ok (b2 : Z) : bool :=
  if view_eq_dec (option_map row_view (lookup_mnemonic 48 (Some b2)))
                 (option_map (fun p => (12288 + b2, fst p, snd p)) (arch_lookup arch_opcodes (12288 + b2)))
  then true else false.

Definition bytes256 : list Z := map Z.of_nat (seq 0 256).

Lemma in_bytes256 x : 0 <= x < 256 -> In x bytes256.
Proof.
  intros H. unfold bytes256. apply in_map_iff. exists (Z.to_nat x). split; [lia|]. apply in_seq. lia.
Qed.

Lemma forall_bytes (f : Z -> bool) : forallb f bytes256 = true -> forall x, 0 <= x < 256 -> f x = true.
Proof. intros H x Hx. rewrite forallb_forall in H. apply H. now apply in_bytes256. Qed.

Lemma byte_rows_ok : forallb (fun b => (b =? 48) || byte_row_ok b) bytes256 = true.
Proof. vm_compute. reflexivity. Qed.
Lemma half_rows_ok : forallb half_row_ok bytes256 = true.
Proof. vm_compute. reflexivity. Qed.

Lemma find_halfword_in l opc m : find_halfword l opc = Some m -> In (Some m) l.
Proof.
  induction l as [|[x|] t IH]; cbn; try discriminate; auto.
  destruct (mn_opcode x =? opc); [intros [= ->]|]; auto.
Qed.

Lemma lookup_four_slots b1 b2 m : lookup_mnemonic b1 b2 = Some m -> length (mn_ops m) = 4%nat.
Proof.
  assert (A : forallb (fun o => match o with Some m => (length (mn_ops m) =? 4)%nat | None => true end)
                      (g_byte_mnemonics ++ g_halfword_mnemonics) = true) by reflexivity.
  rewrite forallb_forall in A. intros L. apply Nat.eqb_eq, (A (Some m)), in_or_app.
  destruct b2 as [b2|]; cbn [lookup_mnemonic] in L.
  - right. now apply find_halfword_in with (opc := b1 * 256 + b2).
  - left. rewrite <- L. apply nth_In.
    destruct (Nat.lt_ge_cases (Z.to_nat b1) (length g_byte_mnemonics)) as [?|G]; [assumption|].
    rewrite nth_overflow in L by exact G. discriminate.
Qed.

(* The decoder run on two byte sources that agree on offsets 0..31 gives the same result, of 1..26 bytes; never a
   panic, never fuel exhaustion.  One source against itself gives the safety statement.  (26 = two opcode bytes and
   four operands of at most six bytes: expanded-type prefix, descriptor, 32-bit constant.  A byte, halfword or word
   is therefore fetched at an offset of at most 31, 30, 28 -- the bounds of the three fetchers -- and an operand
   starts at an offset of at most 26, one more behind a prefix.) *)

Section Rel.
Variables S1 S2 : Type.
Variable f1 f2 f4 : Z -> S1 -> res S1 Z.
Variable g1 g2 g4 : Z -> S2 -> res S2 Z.
Variable Rel : S1 -> S2 -> Prop.
(* what is known of a fetched byte, halfword, word *)
Variables V1 V2 V4 : Z -> Prop.

(* a panic on either side is excluded *)
Definition res_rel {X} (P : X -> Prop) (r1 : res S1 X) (r2 : res S2 X) : Prop :=
  match r1, r2 with
  | Ok x s, Ok y t => x = y /\ P x /\ Rel s t
  | Err e s, Err e' t => e = e' /\ Rel s t
  | _, _ => False
  end.

Definition fetch_rel (V : Z -> Prop) (hi : Z) (f : Z -> S1 -> res S1 Z) (g : Z -> S2 -> res S2 Z) : Prop :=
  forall off s t, 0 <= off <= hi -> Rel s t -> res_rel V (f off s) (g off t).

Hypothesis F1 : fetch_rel V1 31 f1 g1.
Hypothesis F2 : fetch_rel V2 30 f2 g2.
Hypothesis F4 : fetch_rel V4 28 f4 g4.

Lemma res_rel_weaken {X} (P Q : X -> Prop) r1 r2 : res_rel P r1 r2 -> (forall x, P x -> Q x) -> res_rel Q r1 r2.
Proof. destruct r1, r2; cbn; auto. intros (E & Px & R) PQ. auto. Qed.

Lemma res_rel_bind {X Y} (P : X -> Prop) (Q : Y -> Prop) r1 r2 (k1 : X -> S1 -> res S1 Y) k2 :
  res_rel P r1 r2 -> (forall x s t, P x -> Rel s t -> res_rel Q (k1 x s) (k2 x t)) -> res_rel Q (bind r1 k1) (bind r2 k2).
Proof. destruct r1, r2; cbn; auto; try contradiction. intros (-> & ? & ?) K. now apply K. Qed.

Definition embP (x : Z) : Prop := x = 0 \/ V2 x \/ V4 x \/ exists d, V1 d /\ (x = d \/ x = d mod 16).

Notation got V L := (fun p : Z * Z => V (fst p) /\ snd p = L).
Notation opnd L B := (fun p : operand * Z => embP (oemb (fst p)) /\ L <= snd p <= B).
Notation opnds L B := (fun p : list operand * Z => Forall (fun o => embP (oemb o)) (fst p) /\ L <= snd p <= B).

Lemma acc_byte_rel len s t : Rel s t -> 0 <= len < 32 ->
  res_rel (got V1 (len + 1)) (acc_byte S1 f1 len s) (acc_byte S2 g1 len t).
Proof.
  intros R Hl. eapply res_rel_bind; [apply (F1 len s t); [lia|exact R]|].
  intros v s' t' Vv R'. replace (len >=? 32) with false by lia. cbn. auto.
Qed.
Lemma acc_half_rel len s t : Rel s t -> 0 <= len < 31 ->
  res_rel (got V2 (len + 2)) (acc_half S1 f2 len s) (acc_half S2 g2 len t).
Proof.
  intros R Hl. eapply res_rel_bind; [apply (F2 len s t); [lia|exact R]|].
  intros v s' t' Vv R'. replace (len + 1 >=? 32) with false by lia. cbn. auto.
Qed.
Lemma acc_word_rel len s t : Rel s t -> 0 <= len < 29 ->
  res_rel (got V4 (len + 4)) (acc_word S1 f4 len s) (acc_word S2 g4 len t).
Proof.
  intros R Hl. eapply res_rel_bind; [apply (F4 len s t); [lia|exact R]|].
  intros v s' t' Vv R'. replace (len + 3 >=? 32) with false by lia. cbn. auto.
Qed.

Lemma emb_byte d : V1 d -> embP d.
Proof. intros H. right. right. right. exists d. auto. Qed.
Lemma emb_nibble d : V1 d -> embP (d mod 16).
Proof. intros H. right. right. right. exists d. auto. Qed.

(* the ends of the decoder's branches: a result, an illegal opcode, or one more constant and then a result *)
Ltac fin := cbn [res_rel fst snd illegal oemb] in *; repeat split;
            lazymatch goal with
            | |- embP _ => first [now apply emb_byte | now apply emb_nibble | unfold embP; tauto]
            | _ => first [reflexivity | assumption | lia]
            end.
Ltac leaf :=
  first
    [ eapply res_rel_bind;
      [ first [apply acc_word_rel | apply acc_half_rel | apply acc_byte_rel]; [assumption|lia]
      | intros [? ?] ? ? [? ?] ?; fin ]
    | fin ].

Lemma literal_rel dt len s t : Rel s t -> 0 <= len <= 26 ->
  res_rel (opnd (len + 1) (len + 4)) (decode_literal_operand S1 f1 f2 f4 dt len s) (decode_literal_operand S2 g1 g2 g4 dt len t).
Proof. intros R Hl. unfold decode_literal_operand. destruct dt; leaf. Qed.

(* one descriptor, after a prefix (recur) or not; the prefix case is the induction on the fuel *)
Lemma descriptor_rel fuel : forall dt et (recur : bool) len s t,
  ((if recur then 1 else 2) <= fuel)%nat -> Rel s t -> 0 <= len <= (if recur then 27 else 26) ->
  res_rel (opnd (len + 1) (len + (if recur then 5 else 6)))
       (decode_descriptor S1 f1 f2 f4 fuel dt et recur len s) (decode_descriptor S2 g1 g2 g4 fuel dt et recur len t).
Proof.
  induction fuel as [|fuel IH]; intros dt et recur len s t Hf R Hl; [destruct recur; lia|]. cbn [decode_descriptor].
  eapply res_rel_bind; [apply acc_byte_rel; [exact R|destruct recur; lia]|].
  intros [d l1] s1 t1 [Vd Hl1] R1. cbn [fst snd] in *. cbv zeta.
  destruct recur, (d mod 16 =? 15); cbv iota in Hf, Hl; cbn [andb negb];
    repeat match goal with
           | |- res_rel _ (if ?c then _ else _) _ => destruct c
           | |- res_rel _ (match ?c with Some _ => _ | None => _ end) _ => destruct c
           end; try leaf.
  eapply res_rel_weaken; [apply (IH dt (Some d0) true); [cbv iota; lia|assumption|cbv iota; lia] | cbv beta iota; intuition lia].
Qed.

Lemma operand_rel mn ot et len s t : Rel s t -> 0 <= len <= 26 -> ot <> ONone ->
  res_rel (opnd (len + 1) (len + 6)) (decode_operand S1 f1 f2 f4 mn ot et len s) (decode_operand S2 g1 g2 g4 mn ot et len t).
Proof.
  intros R Hl N. destruct ot; cbn [decode_operand]; try congruence.
  - eapply res_rel_weaken; [apply literal_rel; assumption | cbv beta iota; intuition lia].
  - apply (descriptor_rel 3 _ _ false); [lia | assumption | assumption].
  - apply (descriptor_rel 3 _ _ false); [lia | assumption | assumption].
Qed.

Lemma ops_rel mn ots : forall et len s t, Rel s t -> 0 <= len -> len + 6 * Z.of_nat (length ots) <= 32 ->
  res_rel (opnds len (len + 6 * Z.of_nat (length ots)))
       (decode_ops S1 f1 f2 f4 mn ots et len s) (decode_ops S2 g1 g2 g4 mn ots et len t).
Proof.
  induction ots as [|ot rest IH]; intros et len s t R H0 Hl; cbn [decode_ops]; cbn [length] in *.
  - cbn. repeat split; (auto || lia).
  - rewrite Nat2Z.inj_succ in *.
    assert (Hrest : forall et' l' s' t', Rel s' t' -> len <= l' <= len + 6 ->
              res_rel (opnds len (len + 6 * Z.succ (Z.of_nat (length rest))))
                   (decode_ops S1 f1 f2 f4 mn rest et' l' s') (decode_ops S2 g1 g2 g4 mn rest et' l' t')).
    { intros et' l' s' t' R' Hl'. eapply res_rel_weaken; [apply IH; [auto|lia|lia] | cbv beta iota; intuition lia]. }
    destruct ot.
    1-3: eapply res_rel_bind; [apply operand_rel; [auto|lia|congruence]|];
      intros [o l1] s1 t1 [Eo Hl1] R1; cbn [fst snd] in *.
    all: eapply res_rel_bind; [apply Hrest; [eassumption|lia]|]; intros [r l2] s2 t2 [Er Hl2] R2;
      cbn [res_rel fst snd] in *; repeat split; (assumption || lia || constructor; (assumption || (left; reflexivity))).
Qed.

Theorem decode_instruction_rel s t : Rel s t ->
  res_rel (fun i => 1 <= ilen i <= 26 /\ forall k, embP (oemb (get_op i k)))
       (decode_instruction S1 f1 f2 f4 s) (decode_instruction S2 g1 g2 g4 t).
Proof.
  intros R. unfold decode_instruction.
  eapply res_rel_bind; [apply acc_byte_rel; [exact R|lia]|]. intros [b1 l1] s1 t1 [_ Hl1] R1. cbn [fst snd] in *.
  eapply (res_rel_bind (fun r2 : option Z * Z => 1 <= snd r2 <= 2)).
  { destruct (b1 =? 48); [|now cbn; auto with zarith].
    eapply res_rel_bind; [apply acc_byte_rel; [exact R1|lia]|]. intros [b2 l2] s2 t2 [_ Hl2] R2. cbn in *. auto with zarith. }
  intros [ob2 l2] s2 t2 Hl2 R2. cbn [fst snd] in *.
  destruct (lookup_mnemonic b1 ob2) as [mn|] eqn:L; [|now cbn].
  pose proof (lookup_four_slots _ _ _ L) as Len.
  eapply res_rel_bind; [apply (ops_rel mn (mn_ops mn) None l2); [exact R2|lia|rewrite Len; lia]|].
  rewrite Len. intros [ops l] s3 t3 [Eo Hl3] R3. cbn [res_rel fst snd ilen] in *.
  split; [reflexivity|]. split; [|exact R3]. split; [lia|].
  assert (N : forall n, embP (oemb (nth n ops operand_clear))).
  { intros n. destruct (nth_in_or_default n ops operand_clear) as [In_ | ->]; [|now left].
    rewrite Forall_forall in Eo. now apply Eo. }
  intros k. unfold get_op. cbn [op0 op1 op2 op3]. repeat destruct (k =? _); apply N.
Qed.
End Rel.

Section Safe.
Variable St : Type.
Variable f1 f2 f4 : Z -> St -> res St Z.
Variable I : St -> Prop.

Definition fetch_safe (f : Z -> St -> res St Z) : Prop :=
  forall off s, I s -> 0 <= off ->
    match f off s with Ok v s' => I s' /\ 0 <= v | Err _ s' => I s' | _ => False end.

Hypothesis F1 : fetch_safe f1.
Hypothesis F2 : fetch_safe f2.
Hypothesis F4 : fetch_safe f4.

Definition dec_good (r : res St instr) : Prop :=
  match r with
  | Ok i s => 1 <= ilen i <= 26 /\ I s
  | Err _ s => I s
  | _ => False
  end.

Hypothesis fetch_byte_range : forall off s, I s -> 0 <= off ->
  match f1 off s with Ok v _ => 0 <= v < 256 | _ => True end.

Lemma fetch_safe_rel f hi : fetch_safe f -> fetch_rel St St (fun s t => s = t /\ I s) (fun _ => True) hi f f.
Proof.
  intros F off s t Ho [<- Is]. specialize (F off s Is ltac:(lia)).
  destruct (f off s); cbn; tauto.
Qed.

Lemma decode_instruction_good s : I s -> dec_good (decode_instruction St f1 f2 f4 s).
Proof using F1 F2 F4 fetch_byte_range.
  intros Is.
  pose proof (decode_instruction_rel St St f1 f2 f4 f1 f2 f4 _ _ _ _ (fetch_safe_rel f1 31 F1) (fetch_safe_rel f2 30 F2)
                (fetch_safe_rel f4 28 F4) s s (conj eq_refl Is)) as G.
  destruct (decode_instruction St f1 f2 f4 s); cbn in *; tauto.
Qed.

End Safe.

Lemma decode_instruction_emb St f1 f2 f4 (I : St -> Prop) :
  fetch_safe St I f1 -> fetch_safe St I f2 -> fetch_safe St I f4 ->
  (forall off s v s', I s -> 0 <= off -> f1 off s = Ok v s' -> v < 256) ->
  (forall off s v s', I s -> 0 <= off -> f2 off s = Ok v s' -> v < 65536) ->
  (forall off s v s', I s -> 0 <= off -> f4 off s = Ok v s' -> v < 4294967296) ->
  forall s i s', I s -> decode_instruction St f1 f2 f4 s = Ok i s' -> forall k, 0 <= oemb (get_op i k) < 4294967296.
Proof.
  intros F1 F2 F4 B1 B2 B4 s i s' Is E k.
  assert (A : forall f b hi, fetch_safe St I f -> (forall off s v s', I s -> 0 <= off -> f off s = Ok v s' -> v < b) ->
                fetch_rel St St (fun s t => s = t /\ I s) (fun v => 0 <= v < b) hi f f).
  { intros f b hi F B off s0 t Ho [<- Is0]. specialize (F off s0 Is0 ltac:(lia)). specialize (B off s0).
    destruct (f off s0) as [v s1| | |]; cbn; try tauto. specialize (B v s1 Is0 ltac:(lia) eq_refl). intuition lia. }
  pose proof (decode_instruction_rel St St f1 f2 f4 f1 f2 f4 _ _ _ _ (A f1 256 31 F1 B1) (A f2 65536 30 F2 B2)
                (A f4 4294967296 28 F4 B4) s s (conj eq_refl Is)) as G.
  rewrite E in G. destruct G as (_ & (_ & G) & _). specialize (G k).
  destruct G as [-> | [G | [G | (d & G & [-> | ->])]]]; try lia.
  pose proof (Z.mod_pos_bound d 16). lia.
Qed.


Definition byte_at (bs : list Z) (off : Z) : option Z :=
  if off <? 0 then None else nth_error bs (Z.to_nat off).

Definition bfetch1 (bs : list Z) (off : Z) (s : unit) : res unit Z :=
  match byte_at bs off with Some b => Ok b tt | None => Err (EBus BNoDevice) tt end.
Definition bfetch2 (bs : list Z) (off : Z) (s : unit) : res unit Z :=
  match byte_at bs off, byte_at bs (off + 1) with
  | Some b0, Some b1 => Ok (b0 + b1 * 256) tt | _, _ => Err (EBus BNoDevice) tt end.
Definition bfetch4 (bs : list Z) (off : Z) (s : unit) : res unit Z :=
  match byte_at bs off, byte_at bs (off + 1), byte_at bs (off + 2), byte_at bs (off + 3) with
  | Some b0, Some b1, Some b2, Some b3 => Ok (b0 + b1 * 256 + b2 * 65536 + b3 * 16777216) tt
  | _, _, _, _ => Err (EBus BNoDevice) tt end.

Definition decode_bytes (bs : list Z) : res unit instr :=
  decode_instruction unit (bfetch1 bs) (bfetch2 bs) (bfetch4 bs) tt.

Definition bytes_ok (bs : list Z) : Prop := forall b, In b bs -> 0 <= b < 256.

Lemma byte_at_range bs off b : bytes_ok bs -> byte_at bs off = Some b -> 0 <= b < 256.
Proof.
  unfold byte_at. intros H E. destruct (off <? 0); [discriminate|]. apply nth_error_In in E. now apply H.
Qed.

Lemma decode_bytes_total bs : bytes_ok bs ->
  match decode_bytes bs with
  | Ok i _ => 1 <= ilen i <= 26
  | Err _ _ => True
  | _ => False
  end.
Proof.
  intros Hb.
  assert (A : forall f, f = bfetch1 bs \/ f = bfetch2 bs \/ f = bfetch4 bs -> fetch_safe unit (fun _ => True) f).
  { intros f [-> | [-> | ->]] off s _ _; unfold bfetch1, bfetch2, bfetch4;
      repeat match goal with |- context [byte_at bs ?o] => destruct (byte_at bs o) eqn:?; [|exact Logic.I] end;
      (split; [exact Logic.I|]);
      repeat match goal with E : byte_at _ _ = Some _ |- _ => apply (byte_at_range _ _ _ Hb) in E end; lia. }
  assert (Rg : forall off s, True -> 0 <= off -> match bfetch1 bs off s with Ok v _ => 0 <= v < 256 | _ => True end).
  { intros off s _ _. unfold bfetch1. destruct (byte_at bs off) eqn:E; auto. eapply byte_at_range; eauto. }
  pose proof (decode_instruction_good unit _ _ _ _ (A _ (or_introl eq_refl)) (A _ (or_intror (or_introl eq_refl)))
                (A _ (or_intror (or_intror eq_refl))) Rg tt Logic.I) as G.
  unfold decode_bytes. destruct (decode_instruction unit (bfetch1 bs) (bfetch2 bs) (bfetch4 bs) tt); cbn in *; tauto.
Qed.

(* the reserved descriptor bytes: register 11 in the deferred / displacement modes, the reserved expanded-type codes *)
Definition reserved_desc (d : Z) : bool :=
  let m := d / 16 in let r := d mod 16 in
  ((m =? 5) || ((8 <=? m) && (m <=? 13))) && (r =? 11)
  || (m =? 14) && negb (r =? 15) && negb ((r =? 0) || (r =? 2) || (r =? 3) || (r =? 4) || (r =? 6) || (r =? 7)).

