(* C15: the display window and the dirty flag. *)
From Coq Require Import ZArith Lia Bool List ZifyBool.
From Dmd Require Import Model.Bits Model.Fifo Model.Mem Model.Mouse Model.Duart Model.Bus.
From Dmd Require Import Proofs.BitsLemmas Proofs.MemProofs Proofs.BusProofs.
Open Scope Z_scope.

Definition vid_ok (b : bus) : Prop := 0 <= mget (vid b) 0 < 256 /\ 0 <= mget (vid b) 1 < 256.

Lemma video_start_bound b : vid_ok b -> 0 <= video_start b <= 262140 /\ video_start b mod 4 = 0.
Proof. unfold vid_ok, video_start. intros [H0 H1]. split; [lia|]. apply Z.mod_mul. lia. Qed.

Lemma frame_is_window b :
  bus_wf b -> vid_ok b ->
  bus_video_ram b = Ok (mem_slice (ram b) (video_start b) (Z.to_nat 102400)) (with_dirty b false).
Proof.
  intros W Vk. unfold bus_video_ram, VIDEO_LEN. pose proof (video_start_bound b Vk) as [Hb _].
  destruct W as [_ _ _ [_ [-> _]]]. now if_lia.
Qed.

Inductive vop := VWb (a v : Z) | VWh (a v : Z) | VWw (a v : Z) | VFetch.

Definition apply_res {A} (b : bus) (r : res bus A) : bus :=
  match r with Ok _ b' | Err _ b' => b' | _ => b end.

Definition vstep (o : vop) (b : bus) : bus :=
  match o with
  | VWb a v => apply_res b (bus_write_byte a v b)
  | VWh a v => apply_res b (bus_write_half a v b)
  | VWw a v => apply_res b (bus_write_word a v b)
  | VFetch => apply_res b (bus_video_ram b)
  end.

(* the window in absolute addresses, as the property states it *)
Definition in_window (b : bus) (x : Z) : bool :=
  (7340032 + video_start b <=? x) && (x <? 7340032 + video_start b + 102400).

(* "a successful write some byte of which lies in the window current at that write" *)
Definition lands (b : bus) (o : vop) : bool :=
  match o with
  | VWb a v => is_ok (bus_write_byte a v b) && in_window b a
  | VWh a v => is_ok (bus_write_half a v b) && (in_window b a || in_window b (a + 1))
  | VWw a v => is_ok (bus_write_word a v b)
               && (in_window b a || in_window b (a + 1) || in_window b (a + 2) || in_window b (a + 3))
  | VFetch => false
  end.

Fixpoint ghost_run (ops : list vop) (b : bus) (g : bool) : bus * bool :=
  match ops with
  | [] => (b, g)
  | o :: t => ghost_run t (vstep o b) (match o with VFetch => false | _ => g || lands b o end)
  end.

Lemma is_video_ram_spec b a : vid_ok b -> is_video_ram b a = in_window b a.
Proof. intros Vk. pose proof (video_start_bound b Vk). unfold is_video_ram, in_window, VIDEO_LEN. lia. Qed.

(* aligned accesses are entirely inside or entirely outside the window: both its ends are multiples of 4 *)
Lemma window_half_aligned b a : vid_ok b -> a mod 2 = 0 -> in_window b (a + 1) = in_window b a.
Proof. intros Vk Ha. pose proof (video_start_bound b Vk). unfold in_window. Z.div_mod_to_equations. lia. Qed.

Lemma window_word_aligned b a j : vid_ok b -> a mod 4 = 0 -> 0 <= j < 4 -> in_window b (a + j) = in_window b a.
Proof. intros Vk Ha Hj. pose proof (video_start_bound b Vk). unfold in_window. Z.div_mod_to_equations. lia. Qed.

Lemma aligned_mod w a : aligned w a = true -> a mod (wlast w 1) = 0.
Proof. destruct w; cbn; rewrite ?land1_mod, ?land3_mod; [intros _; apply Z.mod_1_r | lia..]. Qed.

Lemma window_write_ok w a v b :
  bus_wf b -> vid_ok b -> aligned w a = true -> in_window b a = true -> is_ok (bus_write w a v b) = true.
Proof.
  intros W Vk A Win. pose proof (video_start_bound b Vk) as Hv. pose proof (aligned_mod w a A) as Am.
  assert (R : 7340032 <= a /\ wlast w a < 8388608)
    by (unfold in_window in Win; destruct w; cbn [wlast] in *; Z.div_mod_to_equations; lia).
  rewrite bus_write_route, A, (get_device_in DRam a) by (cbn; destruct w; cbn [wlast] in R; lia).
  assert (E : dev_mem (mark_dirty a b) DRam = ram b) by (destruct (mark_dirty_cases a b) as [-> | ->]; reflexivity).
  rewrite dev_write_nf, E, mem_write_nf.
  destruct W as [_ _ _ (Rb & Rs & Rr)]. unfold mend. rewrite Rr, Rb, Rs. now repeat if_lia.
Qed.

Lemma ram_geom_mark b a : bus_wf b -> mbase (ram (mark_dirty a b)) = 7340032 /\ msize (ram (mark_dirty a b)) = 1048576
                                     /\ mro (ram (mark_dirty a b)) = false.
Proof. intros W. apply (wf_mark_dirty a b W). Qed.

Lemma touched_dirty b b' : touched b b' -> dirty b' = dirty b.
Proof. intros [|du|d off l [->|[->| ->]] _]; reflexivity. Qed.

Lemma write_dirty w a v b : bus_wf b -> vid_ok b ->
  dirty (apply_res b (bus_write w a v b)) = dirty b || (is_ok (bus_write w a v b) && in_window b a).
Proof.
  intros W Vk. pose proof (bus_write_touched w a v b W) as T. pose proof (window_write_ok w a v b W Vk) as K.
  assert (D : dirty (mark_dirty a b) = dirty b || in_window b a)
    by (unfold mark_dirty; rewrite (is_video_ram_spec b a Vk); destruct (in_window b a); cbn; now rewrite ?orb_true_r, ?orb_false_r).
  destruct (bus_write w a v b) as [u b'|e b'| |]; cbn [apply_res is_ok andb] in *; [|subst b'|contradiction..].
  - now rewrite (touched_dirty _ _ T).
  - rewrite orb_false_r. destruct (aligned w a); [|reflexivity]. rewrite D.
    destruct (in_window b a); [discriminate K; reflexivity | apply orb_false_r].
Qed.

Definition vinv (b : bus) : Prop := bus_wf b /\ vid_ok b.

Lemma vinv_dirty b v : vinv b -> vinv (with_dirty b v).
Proof. intros [[? ? ? ?] ?]. split; [constructor|]; assumption. Qed.

Lemma touched_vinv b b' : vinv b -> touched b b' -> vinv b'.
Proof.
  intros [W Vk] T. split; [exact (touched_wf b b' W T)|].
  destruct T as [|du|d off l [->|[->| ->]] Ho]; try exact Vk.
  destruct Vk. split; cbn [set_dev_mem dev_mem vid with_vid]; apply mset_list_byte; lia || assumption.
Qed.

Lemma vinv_write w a v b : vinv b -> vinv (apply_res b (bus_write w a v b)).
Proof.
  intros I. pose proof (bus_write_touched w a v b (proj1 I)) as T.
  assert (Im : vinv (mark_dirty a b)) by (destruct (mark_dirty_cases a b) as [-> | ->]; auto using vinv_dirty).
  destruct (bus_write w a v b); cbn [apply_res]; [eauto using touched_vinv | subst; now case_if | exact I..].
Qed.

Lemma vinv_step o b : vinv b -> vinv (vstep o b).
Proof.
  intros I. destruct o; cbn [vstep]; [exact (vinv_write W1 a v b I) | exact (vinv_write W2 a v b I) | exact (vinv_write W4 a v b I) |].
  destruct I as [W Vk]. rewrite (frame_is_window b W Vk). apply vinv_dirty. now split.
Qed.

Lemma dirty_step o b : vinv b ->
  dirty (vstep o b) = match o with VFetch => false | _ => dirty b || lands b o end.
Proof.
  intros [W Vk]. destruct o; cbn [vstep lands].
  - exact (write_dirty W1 a v b W Vk).
  - destruct (Z.land a 1 =? 0) eqn:A.
    + rewrite window_half_aligned, orb_diag by first [assumption | rewrite <- land1_mod; lia]. exact (write_dirty W2 a v b W Vk).
    + destruct (unaligned W2 a v b A) as [_ E]. cbn [bus_write] in E. rewrite E. cbn. now rewrite orb_false_r.
  - destruct (Z.land a 3 =? 0) eqn:A.
    + rewrite !window_word_aligned, !orb_diag by first [assumption | lia | rewrite <- land3_mod; lia]. exact (write_dirty W4 a v b W Vk).
    + destruct (unaligned W4 a v b A) as [_ E]. cbn [bus_write] in E. rewrite E. cbn. now rewrite orb_false_r.
  - now rewrite (frame_is_window b W Vk).
Qed.

Lemma dirty_iff_written ops : forall b, vinv b ->
  dirty (fst (ghost_run ops b (dirty b))) = snd (ghost_run ops b (dirty b)).
Proof.
  induction ops as [|o t IH]; intros b I; cbn [ghost_run fst snd]; [reflexivity|].
  rewrite <- (dirty_step o b I). apply IH. apply vinv_step; exact I.
Qed.

