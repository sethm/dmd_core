(* Single-bit reasoning for the 8-bit status / interrupt registers. *)
From Coq Require Import ZArith Lia Bool.
From Dmd Require Import Model.Bits.
Open Scope Z_scope.

Lemma land_pow2_testbit x k : 0 <= k -> (Z.land x (2 ^ k) =? 0) = negb (Z.testbit x k).
Proof.
  intros Hk. destruct (Z.testbit x k) eqn:T; cbn [negb].
  - apply Z.eqb_neq. intro E. apply (f_equal (fun z => Z.testbit z k)) in E.
    rewrite Z.land_spec, T, Z.pow2_bits_true, Z.bits_0 in E by lia. discriminate.
  - apply Z.eqb_eq. apply Z.bits_inj'. intros n Hn. rewrite Z.land_spec, Z.bits_0.
    destruct (Z.eq_dec n k) as [->|N]; [now rewrite T|].
    rewrite Z.pow2_bits_false by lia. apply andb_false_r.
Qed.

Lemma bset_pow2 x k : 0 <= k -> bset x (2 ^ k) = Z.testbit x k.
Proof. intros Hk. unfold bset. rewrite land_pow2_testbit by exact Hk. apply negb_involutive. Qed.

Lemma bset_1 x : bset x 1 = Z.testbit x 0.   Proof. exact (bset_pow2 x 0 ltac:(lia)). Qed.
Lemma bset_2 x : bset x 2 = Z.testbit x 1.   Proof. exact (bset_pow2 x 1 ltac:(lia)). Qed.
Lemma bset_4 x : bset x 4 = Z.testbit x 2.   Proof. exact (bset_pow2 x 2 ltac:(lia)). Qed.
Lemma bset_8 x : bset x 8 = Z.testbit x 3.   Proof. exact (bset_pow2 x 3 ltac:(lia)). Qed.
Lemma bset_16 x : bset x 16 = Z.testbit x 4. Proof. exact (bset_pow2 x 4 ltac:(lia)). Qed.
Lemma bset_32 x : bset x 32 = Z.testbit x 5. Proof. exact (bset_pow2 x 5 ltac:(lia)). Qed.
Lemma bset_64 x : bset x 64 = Z.testbit x 6. Proof. exact (bset_pow2 x 6 ltac:(lia)). Qed.
Lemma bset_128 x : bset x 128 = Z.testbit x 7. Proof. exact (bset_pow2 x 7 ltac:(lia)). Qed.

Lemma bset_w8 x k : 0 <= k < 8 -> bset (w8 x) (2 ^ k) = bset x (2 ^ k).
Proof.
  intros Hk. rewrite !bset_pow2 by lia. unfold w8. change 256 with (2 ^ 8).
  apply Z.mod_pow2_bits_low. lia.
Qed.

Lemma testbit_clr8 x m k : Z.testbit (clr8 x m) k = Z.testbit x k && Z.testbit (255 - m) k.
Proof. unfold clr8, not8. apply Z.land_spec. Qed.

Definition bits_grow (s s' : Z) : Prop := forall k, Z.testbit s k = true -> Z.testbit s' k = true.
Lemma bits_grow_refl s : bits_grow s s.
Proof. intros k H. exact H. Qed.
Lemma bits_grow_trans a b c : bits_grow a b -> bits_grow b c -> bits_grow a c.
Proof. intros H1 H2 k H. auto. Qed.
Lemma bits_grow_lor s m : bits_grow s (Z.lor s m).
Proof. intros k H. rewrite Z.lor_spec, H. reflexivity. Qed.
Lemma bits_grow_bset s s' k : 0 <= k -> bits_grow s s' -> bset s (2 ^ k) = true -> bset s' (2 ^ k) = true.
Proof. intros Hk G. rewrite !bset_pow2 by exact Hk. apply G. Qed.

(* evaluate closed boolean / integer subterms (only syntactically closed ones: vm_compute on an open term
   mentioning large definitions can take unbounded time) *)
Ltac is_pos_num p := lazymatch p with xH => idtac | xO ?q => is_pos_num q | xI ?q => is_pos_num q end.
Ltac closed_z c :=
  lazymatch c with
  | Z0 => idtac
  | Zpos ?p => is_pos_num p
  | Zneg ?p => is_pos_num p
  | Z.add ?a ?b => closed_z a; closed_z b
  | Z.sub ?a ?b => closed_z a; closed_z b
  end.

Ltac closed_eqb :=
  repeat match goal with
         | |- context [Z.eqb ?a ?c] =>
           closed_z a; closed_z c;
           let v := eval vm_compute in (Z.eqb a c) in change (Z.eqb a c) with v
         end.

(* split on every test `x =? n` of an if-chain over the variable x *)
Ltac off_cases x :=
  repeat match goal with
         | |- context [x =? ?n] => destruct (Z.eqb_spec x n) as [->|?]; closed_eqb; cbv iota
         end.

Ltac eval_closed_bits :=
  repeat match goal with
         | |- context [Z.testbit ?c ?k] =>
           closed_z c; closed_z k;
           let v := eval vm_compute in (Z.testbit c k) in
           match v with
           | true => change (Z.testbit c k) with true
           | false => change (Z.testbit c k) with false
           end
         | H : context [Z.testbit ?c ?k] |- _ =>
           closed_z c; closed_z k;
           let v := eval vm_compute in (Z.testbit c k) in
           match v with
           | true => change (Z.testbit c k) with true in H
           | false => change (Z.testbit c k) with false in H
           end
         end.

Ltac bits_norm :=
  repeat (rewrite ?bset_1, ?bset_2, ?bset_4, ?bset_8, ?bset_16, ?bset_32, ?bset_64, ?bset_128,
          ?testbit_clr8, ?Z.lor_spec, ?Z.land_spec in * );
  eval_closed_bits;
  repeat rewrite ?andb_true_r, ?andb_false_r, ?orb_true_r, ?orb_false_r, ?andb_true_l, ?orb_false_l in *.

Ltac bits_cases :=
  repeat match goal with
         | |- context [Z.testbit ?x ?k] => destruct (Z.testbit x k)
         | H : context [Z.testbit ?x ?k] |- _ => destruct (Z.testbit x k)
         end.

(* normalise the boolean connectives, split on every `Z.testbit` in sight, compute *)
Ltac bits := bits_norm; bits_cases; cbn in *; try reflexivity; try congruence; try discriminate; auto.
