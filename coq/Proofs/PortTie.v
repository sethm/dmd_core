(* The port helper functions of the model against their statement-by-statement translation from /repo/src/duart.rs
   (Gen/GenPort.v, regenerated on every run): enable / disable transmitter and receiver, loop-back and
   receiver-enabled predicates. *)
From Coq Require Import ZArith Bool.
From Dmd Require Import Model.Bits Model.Duart Gen.GenDuart Gen.GenPort.
Open Scope Z_scope.

Ltac gconsts := unfold gd_CNF_ETX, gd_CNF_ERX, gd_STS_TXR, gd_STS_TXE, gd_STS_RXR, CNF_ETX, CNF_ERX, STS_TXR, STS_TXE, STS_RXR.

Lemma enable_tx_is_source {A} (p : port A) : enable_tx p = g_enable_tx p.
Proof. unfold enable_tx, g_enable_tx, stat_set. gconsts. cbv zeta. reflexivity. Qed.
Lemma disable_tx_is_source {A} (p : port A) : disable_tx p = g_disable_tx p.
Proof. unfold disable_tx, g_disable_tx, stat_clr. gconsts. cbv zeta. reflexivity. Qed.
Lemma enable_rx_is_source {A} (p : port A) : enable_rx p = g_enable_rx p.
Proof. unfold enable_rx, g_enable_rx, stat_clr. gconsts. cbv zeta. reflexivity. Qed.
Lemma disable_rx_is_source {A} (p : port A) : disable_rx p = g_disable_rx p.
Proof. unfold disable_rx, g_disable_rx, stat_clr. gconsts. cbv zeta. reflexivity. Qed.
Lemma loopback_is_source {A} (p : port A) : loopback p = g_loopback p.
Proof. reflexivity. Qed.
Lemma rx_enabled_is_source {A} (p : port A) : rx_enabled p = g_rx_enabled p.
Proof. reflexivity. Qed.
