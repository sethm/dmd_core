(* Safety kit, bus level: on a well-formed bus with byte-valued cells every access of every width at every
   non-negative address completes with a value in range or an error, keeps the bus well formed and leaves ROM alone;
   it never panics.  (Foundation of C12.) *)
From Coq Require Import ZArith Lia Bool List ZifyBool FSets.FMapPositive.
From Dmd Require Import Model.Bits Model.Types Model.Fifo Model.Mem Model.Mouse Model.Duart Model.Bus.
From Dmd Require Import Proofs.BitsLemmas Proofs.MemProofs Proofs.BusProofs.
Open Scope Z_scope.

Definition cells_ok (m : mem) : Prop := forall o, 0 <= o -> 0 <= mget m o < 256.

Record bwf (b : bus) : Prop := {
  bw_geo : bus_wf b;
  bw_rom : cells_ok (rom b); bw_vid : cells_ok (vid b); bw_nv : cells_ok (bbram b); bw_ram : cells_ok (ram b);
  bw_mouse : 0 <= mx (mouse_ b) < 65536 /\ 0 <= my (mouse_ b) < 65536 }.

Lemma bwf_new now : bwf (bus_new now).
Proof.
  constructor; try apply bus_new_wf; try (intros o Ho; unfold bus_new, mem_new, mget; cbn; rewrite PositiveMap.gempty; lia).
  cbn. lia.
Qed.

Definition bsafe {A} (b0 : bus) (P : A -> Prop) (r : res bus A) : Prop :=
  match r with
  | Ok a b => bwf b /\ rom b = rom b0 /\ P a
  | Err _ b => bwf b /\ rom b = rom b0
  | Panic => False
  | OutOfFuel => False
  end.

Lemma is_mem_device d : d <> DDuart -> d <> DMouse -> d = DRom \/ d = DVid \/ d = DBbram \/ d = DRam.
Proof. destruct d; intros; auto; congruence. Qed.

Lemma dev_mem_cells b d : bwf b -> is_memdev d = true -> cells_ok (dev_mem b d).
Proof. intros W M. destruct d; try discriminate; apply W. Qed.

Lemma bwf_with_duart b d : bwf b -> bwf (with_duart b d).
Proof. intros [[A B C D] ? ? ? ? ?]. constructor; cbn; auto. constructor; auto. Qed.
Lemma rom_mark_dirty a b : rom (mark_dirty a b) = rom b.
Proof. destruct (mark_dirty_cases a b) as [-> | ->]; reflexivity. Qed.

Lemma touched_bwf b b' : bwf b -> touched b b' -> bwf b'.
Proof.
  intros W T. pose proof (touched_wf b b' (bw_geo b W) T) as G.
  destruct T as [|du|d off l D Ho]; [exact W | now apply bwf_with_duart |].
  assert (C : cells_ok (mset_list (dev_mem b d) off l))
    by (intros o Hp; apply mset_list_byte; auto; apply dev_mem_cells; destruct D as [->|[->| ->]]; auto).
  destruct W, D as [->|[->| ->]]; constructor; auto.
Qed.

Definition wmax (w : width) : Z := match w with W1 => 256 | W2 => 65536 | W4 => 4294967296 end.

Lemma be_val_range w m a : cells_ok m -> mbase m <= a -> 0 <= be_val w (byte_at m) a < wmax w.
Proof.
  intros C L. unfold byte_at.
  pose proof (C (a - mbase m)); pose proof (C (a + 1 - mbase m)); pose proof (C (a + 2 - mbase m)); pose proof (C (a + 3 - mbase m)).
  destruct w; cbn [be_val wmax]; lia.
Qed.

Lemma bus_read_value w a b v b' : bwf b -> bus_read w a b = Ok v b' -> 0 <= v < wmax w.
Proof.
  intros W. rewrite bus_read_route. case_if; [|discriminate]. destruct (get_device a) as [d|]; [|discriminate].
  rewrite dev_read_nf. destruct (is_memdev d) eqn:M.
  - pose proof (dev_mem_cells b d W M) as C.
    destruct d; try discriminate; cbn [dev_mem] in *; destruct (mem_read w _ a) as [x| |] eqn:E; try discriminate;
      intros [= <- _]; apply mem_read_inv in E as (L & _ & ->); now apply be_val_range.
  - destruct d; try discriminate.
    + cbn [dev_read_byte]. destruct (duart_read_byte _ _) as [[x du]| |]; try discriminate.
      intros [= <- _]. pose proof (w8_range x). destruct w; cbn; lia.
    + destruct w; try discriminate. unfold mouse_read_half. pose proof (bw_mouse b W).
      repeat case_if; try discriminate; intros [= <- _]; cbn; lia.
Qed.

Lemma bus_read_safe w a b : bwf b -> 0 <= a -> bsafe b (fun v => 0 <= v < wmax w) (bus_read w a b).
Proof.
  intros W Ha. pose proof (bus_read_nocrash w b a (bw_geo b W) Ha) as N.
  pose proof (bus_read_touched w a b) as T. pose proof (bus_read_value w a b) as V.
  destruct (bus_read w a b) as [v b'|e b'| |]; cbn in *; try contradiction.
  all: assert (bwf b' /\ rom b' = rom b) as [? ?] by (destruct T as [->|[du ->]]; auto using bwf_with_duart); eauto.
Qed.


Lemma bsafe_bind {A B} b0 (P : A -> Prop) (Q : B -> Prop) (r : res bus A) (k : A -> bus -> res bus B) :
  bsafe b0 P r -> (forall a b, bwf b -> rom b = rom b0 -> P a -> bsafe b0 Q (k a b)) -> bsafe b0 Q (bind r k).
Proof. destruct r; cbn; auto. intros [? [? ?]] K. now apply K. Qed.

Lemma dev_read_byte_safe d x b0 b : bwf b -> rom b = rom b0 -> 0 <= x -> (is_memdev d = true -> dev_lo d <= x) ->
  bsafe b0 (fun v => 0 <= v < 256) (dev_read_byte d x b).
Proof.
  intros W R Hx Hb. destruct (is_memdev d) eqn:M.
  - destruct (wf_dev b d (bw_geo b W) M) as (B & _). pose proof (dev_mem_cells b d W M) as C.
    rewrite dev_read_byte_mem, (mem_read_nf W1), B by exact M. case_if; [cbn; auto|]. replace (_ <=? _) with true by (specialize (Hb eq_refl); lia).
    cbn. split; [exact W | split; [exact R | apply (be_val_range W1); auto; lia]].
  - destruct d; try discriminate; cbn [dev_read_byte]; [|cbn; auto].
    pose proof (duart_read_byte_nopanic (x - 2097152) (duart_ b)).
    destruct (duart_read_byte _ _) as [[v du]| |]; cbn; try congruence; auto using bwf_with_duart, w8_range.
Qed.

Lemma bus_read_op_half_safe a b : bwf b -> 0 <= a -> bsafe b (fun v => 0 <= v < 65536) (bus_read_op_half a b).
Proof.
  intros W Ha. unfold bus_read_op_half, with_dev. destruct (get_device a) as [d|] eqn:G; [|cbn; auto].
  assert (Hb : is_memdev d = true -> dev_lo d <= a)
    by (intros M; destruct (wf_dev b d (bw_geo b W) M) as (<- & _); exact (proj1 (routed_in_dev b a d (bw_geo b W) G M Ha))).
  eapply bsafe_bind; [apply dev_read_byte_safe; auto|]. intros x0 s0 W0 R0 P0.
  eapply bsafe_bind; [apply dev_read_byte_safe; auto; [lia | intros M; specialize (Hb M); lia]|]. intros x1 s1 W1' R1 P1.
  cbn beta in *. cbn. split; [assumption | split; [assumption | lia]].
Qed.

Lemma bus_read_op_word_safe a b : bwf b -> 0 <= a -> bsafe b (fun v => 0 <= v < 4294967296) (bus_read_op_word a b).
Proof.
  intros W Ha. unfold bus_read_op_word, with_dev. destruct (get_device a) as [d|] eqn:G; [|cbn; auto].
  assert (Hb : is_memdev d = true -> dev_lo d <= a)
    by (intros M; destruct (wf_dev b d (bw_geo b W) M) as (<- & _); exact (proj1 (routed_in_dev b a d (bw_geo b W) G M Ha))).
  eapply bsafe_bind; [apply dev_read_byte_safe; auto|]. intros x0 s0 W0 R0 P0.
  eapply bsafe_bind; [apply dev_read_byte_safe; auto; [lia | intros M; specialize (Hb M); lia]|]. intros x1 s1 W1' R1 P1.
  eapply bsafe_bind; [apply dev_read_byte_safe; auto; [lia | intros M; specialize (Hb M); lia]|]. intros x2 s2 W2' R2 P2.
  eapply bsafe_bind; [apply dev_read_byte_safe; auto; [lia | intros M; specialize (Hb M); lia]|]. intros x3 s3 W3 R3 P3.
  cbn beta in *. cbn. split; [assumption | split; [assumption | lia]].
Qed.

Lemma bus_write_safe w a v b : bwf b -> bsafe b (fun _ => True) (bus_write w a v b).
Proof.
  intros W. pose proof (bus_write_touched w a v b (bw_geo b W)) as T. 
  assert (W1 : bwf (mark_dirty a b)).
  { destruct (mark_dirty_cases a b) as [-> | ->]; [exact W|].
    destruct W as [[A B C D] ? ? ? ? ?]. constructor; cbn; auto. constructor; auto. }
  destruct (bus_write w a v b) as [u b'|e b'| |]; cbn; auto.
  - rewrite (touched_rom _ _ T), rom_mark_dirty. eauto using touched_bwf.
  - subst b'. case_if; auto using rom_mark_dirty.
Qed.


(* device service and interrupt polling only touch the DUART *)
Lemma bus_service_bwf now b : bwf b -> bwf (bus_service now b) /\ rom (bus_service now b) = rom b.
Proof. intros W. unfold bus_service. split; [now apply bwf_with_duart | reflexivity]. Qed.
Lemma bus_get_interrupts_bwf now b : bwf b ->
  bwf (snd (bus_get_interrupts now b)) /\ rom (snd (bus_get_interrupts now b)) = rom b.
Proof.
  intros W. unfold bus_get_interrupts. destruct (get_interrupt now (duart_ b)). cbn.
  split; [now apply bwf_with_duart | reflexivity].
Qed.

