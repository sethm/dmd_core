(* What a host mouse-button event leaves alone in the DUART (C01). *)
From Dmd Require Import Model.Bits Model.Duart.

(* everything in the DUART except the four registers a button event is defined to move *)
Definition duart_rest (d : duart) := (pa d, pb d, acr d, outprt d, imr d, next_vblank d).
