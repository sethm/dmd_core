(* Interrupts (C07): the request levels, and the process-switch sequence of cpu.rs (context_switch_1/2/3) that interrupt
   entry and CALLPS share, with RETPS as its inverse, for every setting of the R and I flags of the new control block. *)
From Coq Require Import ZArith Lia Bool List.
From Dmd Require Import Model.Bits Model.Types Model.Mem Model.Duart Model.Bus Model.Decode Model.Cpu.
From Dmd Require Import Proofs.BitsLemmas Proofs.BitKit Proofs.BusProofs Proofs.RegKit
     Proofs.MachKit.
Import ListNotations.
Open Scope Z_scope.

(* the priority level an interrupt request byte is delivered at: 0 = never *)
Definition irq_level (val : Z) : Z := nth (Z.to_nat (Z.land val 63)) IPL_TABLE 0.
Definition cpu_ipl (m : mach) : Z := Z.land (Z.shiftr (PSW m) 13) 15.

(* the documented levels: no request bits -> 0; only bits 0-2 -> 14; any of bits 3-5 -> 15 *)
Lemma irq_level_spec v : 0 <= v < 256 ->
  irq_level v = if v mod 64 =? 0 then 0 else if v mod 64 <? 8 then 14 else 15.
Proof.
  intros _. unfold irq_level. change 63 with (Z.ones 6). rewrite Z.land_ones by lia. change (2 ^ 6) with 64.
  pose proof (Z.mod_pos_bound v 64 eq_refl) as Hw. set (w := v mod 64) in *. clearbody w.
  (* the 64 rows of the table *)
  assert (K : forallb (fun w => nth (Z.to_nat w) IPL_TABLE 0 =? (if w =? 0 then 0 else if w <? 8 then 14 else 15))
                      (map Z.of_nat (seq 0 64)) = true) by (vm_compute; reflexivity).
  rewrite forallb_forall in K. apply Z.eqb_eq, K, in_map_iff. exists (Z.to_nat w). split; [lia|]. apply in_seq. lia.
Qed.

Lemma level15_masks_all m val : 0 <= val < 256 -> cpu_ipl m = 15 -> irq_level val <= cpu_ipl m.
Proof.
  intros Hv H. rewrite H, irq_level_spec by exact Hv.
  destruct (val mod 64 =? 0); [lia|]. destruct (val mod 64 <? 8); lia.
Qed.

Lemma is_kernel_bits m : is_kernel m = negb (Z.testbit (PSW m) 11) && negb (Z.testbit (PSW m) 12).
Proof.
  unfold is_kernel, F_CM.
  set (x := Z.land (Z.shiftr (Z.land (PSW m) 6144) 11) 3).
  assert (B0 : Z.testbit x 0 = Z.testbit (PSW m) 11).
  { unfold x. rewrite Z.land_spec, Z.shiftr_spec, Z.land_spec by lia. cbn. now rewrite !andb_true_r. }
  assert (B1 : Z.testbit x 1 = Z.testbit (PSW m) 12).
  { unfold x. rewrite Z.land_spec, Z.shiftr_spec, Z.land_spec by lia. cbn. now rewrite !andb_true_r. }
  assert (Hx : 0 <= x < 4) by (unfold x; rewrite land3_mod; apply Z.mod_pos_bound; lia).
  assert (Ex : x = 0 \/ x = 1 \/ x = 2 \/ x = 3) by lia.
  rewrite <- B0, <- B1. destruct Ex as [->|[->|[->| ->]]]; reflexivity.
Qed.

Lemma bset_R x : bset x F_R = Z.testbit x 8.
Proof. exact (bset_pow2 x 8 ltac:(lia)). Qed.
Lemma bset_I x : bset x F_I = Z.testbit x 7.
Proof. exact (bset_pow2 x 7 ltac:(lia)). Qed.

Definition psw1 (psw : Z) : Z := Z.lor (clr32 psw (F_ISC + F_TM + F_ET)) 1.
Definition saved_psw (psw h : Z) : Z := Z.lor (clr32 (psw1 psw) F_R) (Z.land h F_R).

Lemma saved_psw_R psw h : Z.testbit (Z.lor (clr32 psw F_R) (Z.land h F_R)) 8 = Z.testbit h 8.
Proof. now psw_bit. Qed.

(* offset in the control block -> register, in the order context_switch_1 stores them; RETPS reloads in the same order *)
Definition save_tab : list (Z * Z) :=
  [(24, 9); (28, 0); (32, 1); (36, 2); (40, 3); (44, 4); (48, 5); (52, 6); (56, 7); (60, 8); (20, 10)].
Definition load_tab : list (Z * Z) := map (fun x => (snd x, fst x)) save_tab.

Lemma tab_at k : 0 <= k <= 8 ->
  alast (28 + 4 * k) save_tab None = Some k /\ offok 64 (28 + 4 * k) = true /\ alast k load_tab None = Some (28 + 4 * k).
Proof.
  intros H. assert (E : k = 0 \/ k = 1 \/ k = 2 \/ k = 3 \/ k = 4 \/ k = 5 \/ k = 6 \/ k = 7 \/ k = 8) by lia.
  repeat (destruct E as [->|E]; [now repeat split|]). now subst k.
Qed.

(* context_switch_1 with its run of eleven stores read off the table *)
Lemma cs1_shape N m :
  context_switch_1 N m =
  bind (wr_word (add32 (R m R_PCBP) 4) (R m R_PC) m) (fun _ m =>
  let m := setPSW m (clr32 (PSW m) F_R) in
  bind (rd_word N m) (fun v m =>
  let m := setPSW m (Z.lor (PSW m) (Z.land v F_R)) in
  bind (wr_word (R m R_PCBP) (PSW m) m) (fun _ m =>
  bind (wr_word (add32 (R m R_PCBP) 8) (R m R_SP) m) (fun _ m =>
  if bset (PSW m) F_R then
    wr_regs (R m R_PCBP) save_tab (fun m' => Ok tt (setR m' R_FP (add32 (R m' R_PCBP) 52))) m
  else Ok tt m)))).
Proof. reflexivity. Qed.

(* what is written of the old block, how much room the new block and its (empty) block-move list take, and where
   that list's first word is; r, i: the R and I flags of the new block's PSW word *)
Definition old_sz (r : bool) : Z := if r then 64 else 12.
Definition new_sz (r i : bool) : Z := if r then (if i then 80 else 68) else 12.
Definition list_off (i : bool) : Z := if i then 76 else 64.

Lemma cs1_effect (r : bool) N m :
  bus_wf (mbus m) -> let P := R m R_PCBP in let n := old_sz r in
  Z.testbit (ldw m N) 8 = r -> blk P n -> in_ram_w N -> N + 4 <= P \/ P + n <= N ->
  exists m', context_switch_1 N m = Ok tt m' /\ bus_wf (mbus m')
    /\ PSW m' = Z.lor (clr32 (PSW m) F_R) (Z.land (ldw m N) F_R)
    /\ (forall i, 0 <= i <= 15 -> i <> 11 -> (if r then i <> 9 else True) -> R m' i = R m i)
    /\ ldw m' P = w32 (PSW m') /\ ldw m' (P + 4) = w32 (R m R_PC) /\ ldw m' (P + 8) = w32 (R m R_SP)
    /\ (if r then R m' R_FP = P + 52 /\ ldw m' (P + 20) = w32 (R m R_AP) /\ ldw m' (P + 24) = w32 (R m R_FP)
                  /\ forall k, 0 <= k <= 8 -> ldw m' (P + 28 + 4 * k) = w32 (R m k)
        else True)
    /\ (forall a, RAMB <= a -> a < P \/ P + n <= a -> ramb m' a = ramb m a).
Proof.
  intros W P n HR B HN D. unfold PSW. rconst. fold P.
  assert (Hn : 12 <= n <= 64) by (unfold n; destruct r; cbn; lia).
  assert (B12 : blk P 12) by (apply (blk_sub _ n); [exact B | lia]).
  pose proof (blk_base _ _ B12 eq_refl) as H0. pose proof (blk_word _ _ 4 B12 eq_refl) as H4.
  pose proof (blk_word _ _ 8 B12 eq_refl) as H8.
  set (q := Z.lor (clr32 (R m 11) F_R) (Z.land (ldw m N) F_R)).
  set (m1 := stw (stw (setR (stw m (P + 4) (R m 15)) 11 q) P q) (P + 8) (R m 12)).
  assert (W1 : bus_wf (mbus m1)) by (unfold m1; auto with mach).
  assert (R1 : forall i, 0 <= i <= 15 -> i <> 11 -> R m1 i = R m i).
  { intros i Hi Ni. unfold m1. rewrite !R_stw, R_setR_other, R_stw by lia. reflexivity. }
  assert (Q1 : R m1 11 = q) by (unfold m1; now autorewrite with mach).
  assert (E1 : context_switch_1 N m = if r then Ok tt (setR (stws m1 P save_tab m1) 9 (P + 52)) else Ok tt m1).
  { rewrite cs1_shape. unfold setPSW, PSW. rconst. fold P.
    rewrite (add32_in_ram _ _ H4), wr_word_ram by assumption. cbn [bind]. cbv zeta.
    rewrite rd_word_ram, ldw_setR by auto with mach. cbn [bind].
    destruct H4 as [a1 _], HN as [n1 [n2 n3]]. rewrite ldw_stw_other by lia.
    autorewrite with mach. fold P. rewrite setR_setR_same. fold q.
    rewrite wr_word_ram by auto with mach. cbn [bind]. autorewrite with mach. fold P.
    rewrite (add32_in_ram _ _ H8), wr_word_ram by auto with mach. cbn [bind]. fold m1.
    rewrite Q1, (R1 13), bset_R by lia. unfold q at 1. rewrite saved_psw_R, HR. fold P.
    destruct r; [|reflexivity].
    rewrite (wr_regs_ram P 64 save_tab B m1) by auto.
    rewrite R_stws, (R1 13) by lia. fold P. now rewrite (add32_in_ram P 52 (blk_word _ _ 52 B eq_refl)). }
  assert (L1 : ldw m1 P = w32 q /\ ldw m1 (P + 4) = w32 (R m R_PC) /\ ldw m1 (P + 8) = w32 (R m R_SP)).
  { destruct H0 as [p1 _]. unfold m1. repeat split.
    - now rewrite ldw_stw_other, ldw_stw_same by lia.
    - now rewrite !ldw_stw_other, ldw_setR, ldw_stw_same by lia.
    - now rewrite ldw_stw_same by lia. }
  assert (F1 : forall a, RAMB <= a -> a < P \/ P + 12 <= a -> ramb m1 a = ramb m a).
  { intros a Ha Da. destruct H0 as [p1 _]. unfold m1.
    rewrite !ramb_stw_other, ramb_setR, ramb_stw_other by lia. reflexivity. }
  rewrite E1. destruct r; eexists; (split; [reflexivity|]).
  - rewrite wf_setR. split; [now apply wf_stws|].
    split; [unfold PSW; rconst; now rewrite R_setR_ne, R_stws by reflexivity|].
    split; [intros i Hi N11 N9; rewrite R_setR_other, R_stws by lia; now apply R1|].
    rewrite !ldw_setR.
    assert (LS : forall o, offok 64 o = true ->
              ldw (stws m1 P save_tab m1) (P + o)
              = match alast o save_tab None with Some j => w32 (R m1 j) | None => ldw m1 (P + o) end)
      by (intros o Ho; now apply (ldw_stws P 64 save_tab B)).
    pose proof (LS 0 eq_refl) as LS0. rewrite !Z.add_0_r in LS0.
    split; [rewrite LS0, R_setR_ne, R_stws, Q1 by reflexivity; apply L1|].
    split; [rewrite (LS 4 eq_refl); apply L1|]. split; [rewrite (LS 8 eq_refl); apply L1|].
    split.
    + split; [apply R_setR_same|]. split; [rewrite (LS 20 eq_refl); cbv [alast save_tab fst snd Z.eqb Pos.eqb]; now rewrite R1 by lia|].
      split; [rewrite (LS 24 eq_refl); cbv [alast save_tab fst snd Z.eqb Pos.eqb]; now rewrite R1 by lia|].
      intros k Hk. destruct (tab_at k Hk) as (Ek & Ok & _). rewrite <- Z.add_assoc, ldw_setR, (LS _ Ok), Ek. now rewrite R1 by lia.
    + intros a Ha Da. rewrite ramb_setR, (ramb_stws_out P 64 save_tab B) by auto. apply F1; lia.
  - split; [exact W1|]. split; [exact Q1|]. split; [intros i Hi N11 _; now apply R1|].
    unfold PSW; rconst. rewrite Q1. repeat split; try apply L1. exact F1.
Qed.

Definition handler_psw (h : Z) : Z := Z.lor (Z.lor (clr32 (clr32 h F_TM) (F_ISC + F_TM + F_ET)) 56) 3.

(* context_switch_2: PSW, PC, SP from the block at N; a block with the I flag (initial context) has the flag cleared
   in the PSW and the PCBP moved past the three words *)
Definition cs2_psw (i : bool) (h : Z) : Z := if i then clr32 (clr32 h F_TM) F_I else clr32 h F_TM.
Definition pcb_after (i : bool) (N : Z) : Z := if i then N + 12 else N.

Lemma cs2_effect (i : bool) N m :
  bus_wf (mbus m) -> blk N 12 -> Z.testbit (ldw m N) 7 = i ->
  exists m', context_switch_2 N m = Ok tt m' /\ mbus m' = mbus m
    /\ R m' R_PCBP = pcb_after i N /\ PSW m' = cs2_psw i (ldw m N)
    /\ R m' R_PC = ldw m (N + 4) /\ R m' R_SP = ldw m (N + 8)
    /\ (forall j, 0 <= j <= 15 -> j <> 11 -> j <> 12 -> j <> 13 -> j <> 15 -> R m' j = R m j).
Proof.
  intros W B HI. pose proof (blk_base _ _ B eq_refl) as H0. pose proof (blk_word _ _ 4 B eq_refl) as H4.
  pose proof (blk_word _ _ 8 B eq_refl) as H8.
  assert (N12 : add32 N 12 = N + 12) by (destruct B as [? [? _]]; apply add32_small; unfold RAMB, RAME in *; lia).
  unfold context_switch_2, setPSW, PSW. rconst. autorewrite with mach.
  rewrite rd_word_ram by auto with mach. cbn [bind]. autorewrite with mach.
  rewrite (add32_in_ram _ _ H4), rd_word_ram by auto with mach. cbn [bind]. autorewrite with mach.
  rewrite (add32_in_ram _ _ H8), rd_word_ram by auto with mach. cbn [bind]. autorewrite with mach.
  rewrite bset_I. psw_bit. rewrite HI. unfold cs2_psw, pcb_after.
  (* either way the result is a stack of register writes on m *)
  destruct i; (eexists; split; [reflexivity|]); autorewrite with mach; rewrite ?N12.
  all: repeat (split; [reflexivity|]).
  all: intros j Hj N11 N12' N13 N15; now rewrite !R_setR_other by lia.
Qed.

(* context_switch_3 when the block-move list of the new block is empty: r0 and r2 are used as scratch *)
Lemma cs3_R_empty m P :
  bus_wf (mbus m) -> R m R_PCBP = P -> in_ram_w (P + 64) -> ldw m (P + 64) = 0 -> bset (PSW m) F_R = true ->
  context_switch_3 m = Ok tt (setR (setR (setR (setR m 0 (P + 64)) 2 0) 0 (P + 68)) 0 (P + 72)).
Proof.
  intros W EP HP L BR. pose proof (in_ram_w_u32 _ HP) as U. destruct HP as [p1 [p2 p3]]. 
  unfold context_switch_3. rewrite BR. rconst. rewrite EP, (add32_small P 64) by lia. autorewrite with mach.
  rewrite rd_word_ram by (auto with mach || now repeat split). cbn [bind]. autorewrite with mach. rewrite L.
  rewrite (add32_small (P + 64) 4) by (unfold RAME in *; lia). replace (P + 64 + 4) with (P + 68) by lia.
  unfold cs3_loop, run_loop.
  assert (D : forall p, iter_loop p cs3_body (setR (setR (setR m 0 (P + 64)) 2 0) 0 (P + 68))
                        = LDone (setR (setR (setR m 0 (P + 64)) 2 0) 0 (P + 68))).
  { induction p as [q IH|q IH|]; cbn [iter_loop]; rewrite ?IH; unfold cs3_body; now autorewrite with mach. }
  rewrite D. cbn [bind]. autorewrite with mach.
  rewrite (add32_small (P + 68) 4) by (unfold RAME in *; lia). now replace (P + 68 + 4) with (P + 72) by lia.
Qed.

Lemma cs3_effect (r : bool) m :
  bus_wf (mbus m) -> Z.testbit (PSW m) 8 = r ->
  (if r then in_ram_w (R m R_PCBP + 64) /\ ldw m (R m R_PCBP + 64) = 0 else True) ->
  exists m', context_switch_3 m = Ok tt m' /\ mbus m' = mbus m
    /\ (forall j, 3 <= j <= 15 -> R m' j = R m j) /\ (if r then True else m' = m).
Proof.
  intros W HR HL. destruct r.
  - destruct HL as [HL L0]. rewrite (cs3_R_empty m _ W eq_refl HL L0) by now rewrite bset_R.
    eexists. split; [reflexivity|]. split; [reflexivity|]. split; [|exact I].
    intros j Hj. now rewrite !R_setR_other by lia.
  - unfold context_switch_3. rewrite bset_R, HR. now exists m.
Qed.

(* the first stage of entry: the old control-block pointer is stacked and the PSW marked (irq_push; psw_enter_1) *)
Definition entry0 (m : mach) : mach :=
  let S := R m R_ISP in
  setPSW (setR (stw m S (R m R_PCBP)) R_ISP (S + 4)) (psw1 (PSW m)).

Lemma entry0_eq m : bus_wf (mbus m) -> in_ram_w (R m R_ISP) ->
  bind (irq_push (R m R_PCBP) m) (fun _ m1 => Ok tt (psw_enter_1 m1)) = Ok tt (entry0 m).
Proof.
  intros W HS. unfold irq_push. rewrite wr_word_ram by assumption. cbn [bind]. rewrite R_stw.
  rewrite add32_small by (destruct HS as [? [? _]]; unfold RAMB, RAME in *; lia).
  unfold psw_enter_1, entry0, psw1, setPSW, PSW. cbv zeta. rconst. now autorewrite with mach.
Qed.

Lemma entry0_wf m : bus_wf (mbus m) -> bus_wf (mbus (entry0 m)).
Proof. intros W. unfold entry0, setPSW. cbv zeta. auto with mach. Qed.
Lemma entry0_R m i : 0 <= i <= 15 -> i <> 11 -> i <> 14 -> R (entry0 m) i = R m i.
Proof. intros. unfold entry0, setPSW. cbv zeta. rconst. rewrite !R_setR_other by lia. apply R_stw. Qed.
Lemma entry0_isp m : R (entry0 m) R_ISP = R m R_ISP + 4.
Proof. unfold entry0, setPSW. cbv zeta. rconst. now autorewrite with mach. Qed.
Lemma entry0_psw m : PSW (entry0 m) = psw1 (PSW m).
Proof. unfold entry0, setPSW, PSW. cbv zeta. apply R_setR_same. Qed.
Lemma entry0_ldw_isp m : RAMB <= R m R_ISP -> ldw (entry0 m) (R m R_ISP) = w32 (R m R_PCBP).
Proof. intros. unfold entry0, setPSW. cbv zeta. rewrite !ldw_setR. now apply ldw_stw_same. Qed.
Lemma entry0_ramb m a : RAMB <= R m R_ISP -> RAMB <= a -> (a < R m R_ISP \/ R m R_ISP + 4 <= a) ->
  ramb (entry0 m) a = ramb m a.
Proof. intros. unfold entry0, setPSW. cbv zeta. rewrite !ramb_setR. now apply ramb_stw_other. Qed.

Definition hpsw (i : bool) (h : Z) : Z := Z.lor (Z.lor (clr32 (cs2_psw i h) (F_ISC + F_TM + F_ET)) 56) 3.
Lemma hpsw_R i h : Z.testbit (hpsw i h) 8 = Z.testbit h 8.
Proof. unfold hpsw, cs2_psw. destruct i; now psw_bit. Qed.


Lemma entry_effect (r i : bool) N m :
  bus_wf (mbus m) ->
  let P := R m R_PCBP in let S := R m R_ISP in let h := ldw m N in
  Z.testbit h 8 = r -> Z.testbit h 7 = i ->
  blk N 12 -> blk P (old_sz r) -> in_ram_w S ->
  (P + old_sz r <= N \/ N + new_sz r i <= P) -> (S + 4 <= P \/ P + old_sz r <= S) -> (S + 4 <= N \/ N + new_sz r i <= S) ->
  (if r then in_ram_w (N + list_off i) /\ ldw m (N + list_off i) = 0 else True) ->
  exists m1, bind (context_switch_1 N (entry0 m)) (fun _ m => bind (context_switch_2 N m) (fun _ m =>
               context_switch_3 (psw_enter_2 m))) = Ok tt m1
    /\ bus_wf (mbus m1)
    /\ R m1 R_ISP = S + 4 /\ R m1 R_PCBP = pcb_after i N /\ PSW m1 = hpsw i h
    /\ R m1 R_PC = ldw m (N + 4) /\ R m1 R_SP = ldw m (N + 8)
    /\ (if r then True else forall j, 0 <= j <= 10 -> R m1 j = R m j)
    /\ ldw m1 S = w32 P /\ ldw m1 P = w32 (saved_psw (PSW m) h)
    /\ ldw m1 (P + 4) = w32 (R m R_PC) /\ ldw m1 (P + 8) = w32 (R m R_SP)
    /\ (if r then ldw m1 (P + 20) = w32 (R m R_AP) /\ ldw m1 (P + 24) = w32 (R m R_FP)
                  /\ forall k, 0 <= k <= 8 -> ldw m1 (P + 28 + 4 * k) = w32 (R m k)
        else True)
    /\ (forall a, RAMB <= a -> (a < S \/ S + 4 <= a) -> (a < P \/ P + old_sz r <= a) -> ramb m1 a = ramb m a).
Proof.
  intros W P S h HR HI BN BP HS D1 D2 D3 HL.
  assert (Sz : 12 <= old_sz r <= 64 /\ 12 <= new_sz r i /\ pcb_after i N + 64 = N + list_off i
               /\ (if r then list_off i + 4 = new_sz r i else True))
    by (destruct r, i; cbn; repeat split; lia || exact I).
  destruct Sz as (Sz1 & Sz2 & Sz3 & Sz4).
  pose proof HS as [s1 [s2 s3]]. pose proof BN as [n1 [n2 n3]]. pose proof BP as [p1 [p2 p3]].
  (* the first stage: nothing of the new block is touched *)
  set (m0 := entry0 m).
  pose proof (entry0_wf m W) as W0.
  assert (R0 : forall j, 0 <= j <= 15 -> j <> 11 -> j <> 14 -> R m0 j = R m j) by (intros; now apply entry0_R).
  assert (F0 : forall a, RAMB <= a -> a < S \/ S + 4 <= a -> ramb m0 a = ramb m a) by (intros; now apply entry0_ramb).
  assert (L0 : forall a, RAMB <= a -> a + 4 <= S \/ S + 4 <= a -> ldw m0 a = ldw m a)
    by (intros a Ha Da; apply ldw_ext; intros x Hx; apply F0; lia).
  assert (E13 : R m0 R_PCBP = P) by (apply R0; unfold R_PCBP; lia).
  destruct (cs1_effect r N m0 W0) as (m5 & E5 & W5 & Psw5 & Rg5 & L5P & L5P4 & L5P8 & LR5 & F5);
    cbv zeta; rewrite ?E13; try assumption.
  { rewrite L0 by lia. exact HR. } { now apply (blk_base _ _ BN). } { lia. }
  cbv zeta in *. rewrite E13 in *. rewrite (L0 N) in Psw5 by lia. fold h in Psw5. unfold m0 in Psw5. rewrite entry0_psw in Psw5.
  fold (saved_psw (PSW m) h) in Psw5.
  assert (L5 : forall a, RAMB <= a -> (a + 4 <= S \/ S + 4 <= a) -> (a + 4 <= P \/ P + old_sz r <= a) -> ldw m5 a = ldw m a).
  { intros a Ha Da Db. rewrite (ldw_frame_blk _ _ _ _ _ F5), L0 by assumption. reflexivity. }
  destruct (cs2_effect i N m5 W5 BN) as (m6 & E6 & B6 & Pcb6 & Psw6 & Pc6 & Sp6 & Rg6).
  { rewrite L5 by lia. exact HI. }
  rewrite !L5 in * by lia. fold h in Psw6.
  set (m7 := psw_enter_2 m6).
  assert (R7 : forall j, 0 <= j <= 15 -> j <> 11 -> R m7 j = R m6 j)
    by (intros j Hj Nj; unfold m7, psw_enter_2, setPSW; rconst; now rewrite R_setR_other by lia).
  assert (Psw7 : PSW m7 = hpsw i h) by (unfold m7, psw_enter_2, setPSW, PSW, hpsw; now rewrite R_setR_same, <- Psw6).
  destruct (cs3_effect r m7) as (m1 & E1 & B1 & Rg1 & Id1).
  { unfold m7, psw_enter_2, setPSW. rewrite mbus_setR, B6. exact W5. }
  { now rewrite Psw7, hpsw_R. }
  { destruct r; [|exact I]. rconst. rewrite (R7 13), Pcb6, Sz3 by lia.
    rewrite (ldw_same_bus m6), (ldw_same_bus m5 m6), L5 by (assumption || reflexivity || lia). exact HL. }
  assert (B15 : mbus m1 = mbus m5) by (rewrite B1; unfold m7, psw_enter_2, setPSW; now rewrite mbus_setR).
  assert (Rhi : forall j, 3 <= j <= 15 -> j <> 11 -> R m1 j = R m6 j) by (intros j Hj Nj; rewrite Rg1, R7 by lia; reflexivity).
  assert (LL : forall a, ldw m1 a = ldw m5 a) by (intros; now apply ldw_same_bus).
  pose proof (entry0_isp m) as I0. fold m0 S in I0. rconst.
  exists m1. rewrite E5. cbn [bind]. rewrite E6. cbn [bind]. split; [exact E1|].
  split; [now rewrite B15|].
  split; [rewrite Rhi, Rg6, Rg5 by (try lia; now destruct r); exact I0|].
  split; [now rewrite Rhi by lia|].
  split; [unfold PSW; rconst; now rewrite Rg1 by lia|].
  split; [now rewrite Rhi by lia|]. split; [now rewrite Rhi by lia|].
  split. { destruct r; [exact I|]. subst m1. intros j Hj. rewrite R7, Rg6, Rg5, R0 by (exact I || lia). reflexivity. }
  rewrite !LL.
  split. { rewrite (ldw_frame_blk _ _ _ _ _ F5) by lia. apply entry0_ldw_isp. exact s1. }
  split; [now rewrite L5P, Psw5|].
  split; [now rewrite L5P4, R0 by lia|]. split; [now rewrite L5P8, R0 by lia|].
  split. { destruct r; [|exact I]. destruct LR5 as (_ & A20 & A24 & Ak).
           split; [now rewrite A20, R0 by lia|]. split; [now rewrite A24, R0 by lia|].
           intros k Hk. now rewrite LL, Ak, R0 by lia. }
  intros a Ha Da Db. unfold ramb at 1. rewrite B15. fold (ramb m5 a). rewrite F5, F0 by assumption. reflexivity.
Qed.

Lemma exec_retps_kernel ir m : iopcode ir = 12488 -> is_kernel m = true ->
  exec ir m =
  bind (irq_pop m) (fun new_pcbp m => bind (rd_word new_pcbp m) (fun new_psw m =>
    let m := setPSW m (Z.lor (clr32 (PSW m) F_R) (Z.land new_psw F_R)) in
    bind (context_switch_2 new_pcbp m) (fun _ m => bind (context_switch_3 m) (fun _ m =>
      if bset (PSW m) F_R then rd_regs new_pcbp load_tab (fun m => Ok 0 m) m else Ok 0 m)))).
Proof. destruct ir as [opc ? ? ? ? ?]. cbn [iopcode]. intros -> K. cbn. rewrite K. reflexivity. Qed.

Lemma retps_effect_gen (r : bool) ir m :
  iopcode ir = 12488 -> is_kernel m = true -> bus_wf (mbus m) -> in_ram_w (R m R_ISP - 4) ->
  let P := ldw m (R m R_ISP - 4) in
  let Q := ldw m P in
  Z.testbit Q 8 = r -> Z.testbit Q 7 = false -> blk P (old_sz r) ->
  (if r then in_ram_w (P + 64) /\ ldw m (P + 64) = 0 else True) ->
  exists m', exec ir m = Ok 0 m' /\ mbus m' = mbus m
    /\ R m' R_ISP = R m R_ISP - 4 /\ R m' R_PCBP = P /\ PSW m' = clr32 Q F_TM
    /\ R m' R_PC = ldw m (P + 4) /\ R m' R_SP = ldw m (P + 8)
    /\ (if r then R m' R_FP = ldw m (P + 24) /\ R m' R_AP = ldw m (P + 20)
                  /\ forall k, 0 <= k <= 8 -> R m' k = ldw m (P + 28 + 4 * k)
        else forall j, 0 <= j <= 10 -> R m' j = R m j).
Proof.
  intros Ho K W Hs P Q QR QI BP HL.
  assert (B12 : blk P 12) by (apply (blk_sub _ (old_sz r)); [exact BP | destruct r; cbn; lia]).
  rewrite exec_retps_kernel by assumption. unfold irq_pop, setPSW. rconst.
  rewrite (sub32_in_ram _ _ Hs). autorewrite with mach.
  rewrite rd_word_ram, ldw_setR by auto with mach. cbn [bind]. fold P.
  rewrite rd_word_ram, ldw_setR by (auto with mach || exact (blk_base _ _ B12 eq_refl)). cbn [bind]. fold Q. cbv zeta.
  set (ma := setR (setR m 14 (R m 14 - 4)) 11 _).
  assert (La : forall a, ldw ma a = ldw m a) by (intros; unfold ma; now rewrite !ldw_setR).
  destruct (cs2_effect false P ma) as (mb & Eb & Bb & Pcbb & Pswb & Pcb & Spb & Rgb);
    [unfold ma; auto with mach | exact B12 | now rewrite La |].
  rewrite Eb. cbn [bind]. rewrite !La in Pswb, Pcb, Spb. fold Q in Pswb.
  unfold cs2_psw, pcb_after in *. rconst.
  assert (Rb : forall j, 0 <= j <= 10 -> R mb j = R m j)
    by (intros j Hj; unfold ma in Rgb; rewrite Rgb, !R_setR_other by lia; reflexivity).
  destruct (cs3_effect r mb) as (mc & Ec & Bc & Rgc & Idc).
  { now rewrite Bb. } { rewrite Pswb. psw_bit. exact QR. }
  { destruct r; [|exact I]. rconst. rewrite Pcbb, (ldw_same_bus ma), La by assumption. exact HL. }
  rewrite Ec. cbn [bind].
  assert (Pswc : PSW mc = clr32 Q F_TM) by (unfold PSW in *; rconst; now rewrite Rgc by lia).
  rewrite Pswc, bset_R. psw_bit. rewrite QR.
  assert (Bm : mbus mc = mbus m) by (now rewrite Bc, Bb).
  assert (Hi : R mc 14 = R m 14 - 4 /\ R mc 13 = P /\ R mc 15 = ldw m (P + 4) /\ R mc 12 = ldw m (P + 8)).
  { rewrite !Rgc by lia. unfold ma in Rgb. rewrite Rgb, R_setR_ne, R_setR_same by (lia || reflexivity). auto. }
  destruct r.
  - destruct HL as [HL _].
    rewrite (rd_regs_ram P 64 load_tab BP m) by (reflexivity || assumption || now rewrite Bm).
    eexists. split; [reflexivity|]. rewrite mbus_lds. split; [exact Bm|].
    assert (RL : forall j, regok j = true ->
              R (lds m P load_tab mc) j = match alast j load_tab None with Some o => ldw m (P + o) | None => R mc j end)
      by (intros; now apply R_lds).
    unfold PSW. rconst.
    repeat (split; [rewrite RL by reflexivity; first [apply Hi | exact Pswc | reflexivity]|]).
    intros k Hk. destruct (tab_at k Hk) as (_ & _ & Ek). rewrite RL, Ek, Z.add_assoc by (unfold regok; lia). reflexivity.
  - exists mc. subst mc. split; [reflexivity|]. split; [exact Bm|]. unfold PSW in *. rconst.
    repeat (split; [apply Hi || exact Pswc|]). exact Rb.
Qed.

Lemma saved_psw_bit8 psw h : Z.testbit (w32 (saved_psw psw h)) 8 = Z.testbit h 8.
Proof. rewrite testbit_w32 by lia. apply saved_psw_R. Qed.
Lemma saved_psw_bit7 psw h : Z.testbit (w32 (saved_psw psw h)) 7 = Z.testbit psw 7.
Proof. rewrite testbit_w32 by lia. unfold saved_psw, psw1. now psw_bit. Qed.

(* the PSW bits in question: N Z V C (21-18), IPL (16-13), CM (12-11), PM (10-9), I (7) *)
Lemma saved_psw_keeps_bit psw h k :
  In k [21; 20; 19; 18; 16; 15; 14; 13; 12; 11; 10; 9; 7] ->
  Z.testbit (clr32 (w32 (saved_psw psw h)) F_TM) k = Z.testbit psw k.
Proof.
  intros Hk. rewrite testbit_clr32. cbn [In] in Hk.
  repeat (destruct Hk as [<-|Hk]; [rewrite testbit_w32 by lia; unfold saved_psw, psw1; now psw_bit|]).
  contradiction.
Qed.

Lemma hpsw_kernel i h m : Z.testbit h 11 = false -> Z.testbit h 12 = false -> PSW m = hpsw i h -> is_kernel m = true.
Proof.
  intros H11 H12 E. rewrite is_kernel_bits, E. unfold hpsw, cs2_psw. destruct i; psw_bit; now rewrite H11, H12.
Qed.

Definition ret_sz (r : bool) : Z := if r then 68 else 12.

(* the switch into the block at N followed at once by RETPS: PC, SP, r0-r10, PCBP, ISP, condition codes, priority
   level and execution level come back (as 32-bit values where they went through memory), and only the old control
   block and the interrupt-stack slot have been written *)
Lemma entry_retps_transparent (r i : bool) ir N m :
  iopcode ir = 12488 -> bus_wf (mbus m) ->
  let P := R m R_PCBP in let S := R m R_ISP in let h := ldw m N in
  Z.testbit h 8 = r -> Z.testbit h 7 = i -> Z.testbit h 11 = false -> Z.testbit h 12 = false ->
  Z.testbit (PSW m) 7 = false ->
  blk N 12 -> blk P (old_sz r) -> in_ram_w S ->
  (P + ret_sz r <= N \/ N + new_sz r i <= P) -> (S + 4 <= P \/ P + ret_sz r <= S) -> (S + 4 <= N \/ N + new_sz r i <= S) ->
  (if r then in_ram_w (N + list_off i) /\ ldw m (N + list_off i) = 0 /\ in_ram_w (P + 64) /\ ldw m (P + 64) = 0
   else True) ->
  exists m1 m2,
    bind (context_switch_1 N (entry0 m)) (fun _ m => bind (context_switch_2 N m) (fun _ m =>
      context_switch_3 (psw_enter_2 m))) = Ok tt m1
    /\ R m1 R_PCBP = pcb_after i N /\ exec ir m1 = Ok 0 m2
    /\ R m2 R_PC = w32 (R m R_PC) /\ R m2 R_SP = w32 (R m R_SP) /\ R m2 R_PCBP = P /\ R m2 R_ISP = S
    /\ (forall j, 0 <= j <= 10 -> R m2 j = if r then w32 (R m j) else R m j)
    /\ (forall k, In k [21; 20; 19; 18; 16; 15; 14; 13; 12; 11; 10; 9; 7] -> Z.testbit (PSW m2) k = Z.testbit (PSW m) k)
    /\ (forall a, RAMB <= a -> (a < S \/ S + 4 <= a) -> (a < P \/ P + old_sz r <= a) -> ramb m2 a = ramb m a).
Proof.
  intros Ho W P S h HR HI H11 H12 PI BN BP HS D1 D2 D3 HL.
  assert (Sz : old_sz r <= ret_sz r /\ (if r then ret_sz r = 68 /\ old_sz r = 64 else True))
    by (destruct r; cbn; repeat split; lia || exact I).
  destruct Sz as [Sz1 Sz2].
  destruct (entry_effect r i N m W HR HI BN BP HS) as
    (m1 & E1 & W1 & Isp1 & Pcb1 & Psw1 & _ & _ & Rg1 & LS & LP & LP4 & LP8 & LR & F1); try (fold P S; lia).
  { destruct r; [|exact I]. split; apply HL. }
  fold P S h in Isp1, LS, LP, LP4, LP8, LR, F1, Psw1.
  pose proof (in_ram_w_u32 _ (blk_base _ (old_sz r) BP ltac:(now destruct r))) as UP.
  pose proof HS as [s1 _]. pose proof BP as [p1 _].
  assert (EP : ldw m1 (R m1 R_ISP - 4) = P) by (rewrite Isp1, Z.add_simpl_r, LS; now apply w32_id).
  destruct (retps_effect_gen r ir m1 Ho) as (m2 & E2 & B2 & Isp2 & Pcb2 & Psw2 & Pc2 & Sp2 & Rg2);
    rewrite ?EP, ?LP, ?saved_psw_bit8, ?saved_psw_bit7; try assumption.
  { exact (hpsw_kernel i h m1 H11 H12 Psw1). } { now rewrite Isp1, Z.add_simpl_r. }
  { destruct r; [|exact I]. destruct HL as (_ & _ & HP & LP0), Sz2 as [Sz2 Sz3]. split; [exact HP|].
    rewrite <- LP0. apply ldw_ext. intros x Hx. apply F1; lia. }
  exists m1, m2. rewrite EP in *. rewrite LP4 in Pc2. rewrite LP8 in Sp2.
  split; [exact E1|]. split; [exact Pcb1|]. split; [exact E2|].
  split; [exact Pc2|]. split; [exact Sp2|]. split; [exact Pcb2|]. split; [rewrite Isp2, Isp1; lia|].
  split.
  { intros j Hj. destruct r; [|rewrite Rg2, Rg1 by lia; reflexivity].
    destruct Rg2 as (Fp2 & Ap2 & Rk2), LR as (L20 & L24 & Lk).
    assert (Ej : 0 <= j <= 8 \/ j = 9 \/ j = 10) by lia. destruct Ej as [Ej|[->| ->]].
    - now rewrite Rk2, Lk.
    - exact (eq_trans Fp2 L24).
    - exact (eq_trans Ap2 L20). }
  split; [intros k Hk; rewrite Psw2, LP; now apply saved_psw_keeps_bit|].
  intros a Ha Da Db. unfold ramb at 1. rewrite B2. now apply F1.
Qed.

(* interrupt entry: the new control block is the one the vector table names *)
Lemma on_interrupt_entry v m : bus_wf (mbus m) -> in_rom_w (140 + 4 * v) -> in_ram_w (R m R_ISP) ->
  on_interrupt v m =
  bind (context_switch_1 (romw m (140 + 4 * v)) (entry0 m)) (fun _ m1 =>
    bind (context_switch_2 (romw m (140 + 4 * v)) m1) (fun _ m2 => context_switch_3 (psw_enter_2 m2))).
Proof.
  intros W Hrom HS. unfold on_interrupt. rewrite rd_word_rom by assumption. cbn [bind].
  pose proof (entry0_eq m W HS) as K.
  destruct (irq_push (R m R_PCBP) m) as [u mx|e mx| |]; cbn [bind] in *; try discriminate.
  assert (K' : psw_enter_1 mx = entry0 m) by congruence. cbv zeta. now rewrite K'.
Qed.

Lemma on_interrupt_effect v m :
  bus_wf (mbus m) -> 0 <= v -> in_rom_w (140 + 4 * v) ->
  let N := romw m (140 + 4 * v) in
  let P := R m R_PCBP in
  let S := R m R_ISP in
  in_ram_w N -> in_ram_w (N + 4) -> in_ram_w (N + 8) ->
  in_ram_w P -> in_ram_w (P + 4) -> in_ram_w (P + 8) -> in_ram_w S -> S + 4 < 4294967296 ->
  (P + 12 <= N \/ N + 12 <= P) -> (S + 4 <= P \/ P + 12 <= S) -> (S + 4 <= N \/ N + 12 <= S) ->
  let H := ldw m N in
  Z.testbit H 8 = false -> Z.testbit H 7 = false ->
  exists m1, on_interrupt v m = Ok tt m1
    /\ bus_wf (mbus m1)
    /\ R m1 R_ISP = S + 4 /\ R m1 R_PCBP = N /\ PSW m1 = handler_psw H
    /\ R m1 R_PC = ldw m (N + 4) /\ R m1 R_SP = ldw m (N + 8)
    /\ (forall i, 0 <= i <= 10 -> R m1 i = R m i)
    /\ ldw m1 S = w32 P /\ ldw m1 P = w32 (saved_psw (PSW m) H)
    /\ ldw m1 (P + 4) = w32 (R m R_PC) /\ ldw m1 (P + 8) = w32 (R m R_SP)
    /\ (forall a, RAMB <= a -> (a < S \/ S + 4 <= a) -> (a < P \/ P + 12 <= a) -> ramb m1 a = ramb m a).
Proof.
  intros W _ Hrom N P S N0 _ N8 P0 _ P8 HS _ D1 D2 D3 H HR HI. rewrite on_interrupt_entry by assumption.
  destruct (entry_effect false false N m W HR HI) as (m1 & E & K); auto using blk_words3. exists m1. split; [exact E|].
  destruct K as (W1 & I1 & Pc & Ps & PC & SP & Rg & LS & LP & L4 & L8 & _ & F). split; [exact W1|]. repeat split; assumption.
Qed.

Lemma interrupt_retps_transparent ir v m :
  iopcode ir = 12488 ->
  bus_wf (mbus m) -> 0 <= v -> in_rom_w (140 + 4 * v) ->
  let N := romw m (140 + 4 * v) in
  let P := R m R_PCBP in
  let S := R m R_ISP in
  in_ram_w N -> in_ram_w (N + 4) -> in_ram_w (N + 8) ->
  in_ram_w P -> in_ram_w (P + 4) -> in_ram_w (P + 8) -> in_ram_w S -> S + 4 < 4294967296 ->
  (P + 12 <= N \/ N + 12 <= P) -> (S + 4 <= P \/ P + 12 <= S) -> (S + 4 <= N \/ N + 12 <= S) ->
  let H := ldw m N in
  0 <= H -> Z.testbit H 8 = false -> Z.testbit H 7 = false -> Z.testbit H 11 = false -> Z.testbit H 12 = false ->
  Z.testbit (PSW m) 7 = false ->
  0 <= R m R_PC < 4294967296 -> 0 <= R m R_SP < 4294967296 ->
  exists m1 m2,
    on_interrupt v m = Ok tt m1 /\ exec ir m1 = Ok 0 m2
    /\ R m2 R_PC = R m R_PC /\ R m2 R_SP = R m R_SP /\ R m2 R_PCBP = P /\ R m2 R_ISP = S
    /\ (forall i, 0 <= i <= 10 -> R m2 i = R m i)
    /\ (forall k, In k [21; 20; 19; 18; 16; 15; 14; 13; 12; 11; 10; 9; 7] -> Z.testbit (PSW m2) k = Z.testbit (PSW m) k)
    /\ (forall a, RAMB <= a -> (a < S \/ S + 4 <= a) -> (a < P \/ P + 12 <= a) -> ramb m2 a = ramb m a).
Proof.
  intros Ho W _ Hrom N P S N0 _ N8 P0 _ P8 HS _ D1 D2 D3 H _ HR HI H11 H12 PI Hpc Hsp.
  destruct (entry_retps_transparent false false ir N m Ho W HR HI H11 H12 PI) as (m1 & m2 & E1 & _ & E2 & Pc & Sp & Pcb & Isp & Rg & Bits & Fr);
    auto using blk_words3.
  exists m1, m2. rewrite on_interrupt_entry by assumption. rewrite w32_id in Pc, Sp by assumption.
  repeat split; assumption.
Qed.
