(* The three-slot circular buffer refines a FIFO list of at most three elements. *)
From Coq Require Import ZArith Lia Bool List.
From Dmd Require Import Model.Bits Model.Fifo.
Open Scope Z_scope.

Section FifoProofs.
Context {A : Type}.

Definition fifo_wf (q : fifo A) : Prop :=
  0 <= flen q <= 3 /\ 0 <= frp q < 3 /\ fwp q = (frp q + flen q) mod 3.

Lemma fifo_new_wf d : fifo_wf (@fifo_new A d).
Proof. unfold fifo_wf; cbn. lia. Qed.

Lemma fifo_new_contents d : fifo_contents (@fifo_new A d) = [].
Proof. reflexivity. Qed.

Ltac fifo_cases q :=
  let Hw := fresh "Hw" in
  intros Hw; destruct q as [b0 b1 b2 rp wp len]; unfold fifo_wf in Hw; cbn [flen frp fwp] in Hw;
  destruct Hw as (Hl & Hr & Hwp);
  assert (Cr : rp = 0 \/ rp = 1 \/ rp = 2) by lia;
  assert (Cl : len = 0 \/ len = 1 \/ len = 2 \/ len = 3) by lia;
  destruct Cr as [-> | [-> | ->]]; destruct Cl as [-> | [-> | [-> | ->]]]; subst wp.

Lemma fifo_contents_length (q : fifo A) : fifo_wf q -> Z.of_nat (length (fifo_contents q)) = flen q.
Proof. fifo_cases q; reflexivity. Qed.

Lemma fifo_push_full (q : fifo A) (c : A) : flen q = 3 -> fifo_push q c = None.
Proof. intros H. unfold fifo_push. now rewrite H. Qed.

Lemma fifo_push_spec (q : fifo A) (c : A) : fifo_wf q -> flen q < 3 ->
  exists q', fifo_push q c = Some q' /\ fifo_wf q' /\ flen q' = flen q + 1
             /\ fifo_contents q' = fifo_contents q ++ [c].
Proof.
  intros Hw Hlt. revert Hw Hlt. fifo_cases q; intros Hlt; cbn [flen] in Hlt; try lia;
    (eexists; split; [reflexivity|]; unfold fifo_wf; cbn; repeat split; try lia; reflexivity).
Qed.

Lemma fifo_pop_empty (q : fifo A) : flen q = 0 -> fifo_pop q = None.
Proof. intros H. unfold fifo_pop. now rewrite H. Qed.

Lemma fifo_pop_spec (q : fifo A) : fifo_wf q -> 0 < flen q ->
  exists v q', fifo_pop q = Some (v, q') /\ fifo_wf q' /\ flen q' = flen q - 1
               /\ fifo_contents q = v :: fifo_contents q'.
Proof.
  intros Hw Hlt. revert Hw Hlt. fifo_cases q; intros Hlt; cbn [flen] in Hlt; try lia;
    (do 2 eexists; split; [reflexivity|]; unfold fifo_wf; cbn; repeat split; try lia; reflexivity).
Qed.

Lemma fifo_clear_spec (q : fifo A) : fifo_wf (fifo_clear q) /\ fifo_contents (fifo_clear q) = [] /\ flen (fifo_clear q) = 0.
Proof. unfold fifo_wf; cbn. repeat split; lia. Qed.

Lemma fifo_full_spec (q : fifo A) : fifo_full q = true <-> flen q = 3.
Proof. unfold fifo_full. apply Z.eqb_eq. Qed.
Lemma fifo_empty_spec (q : fifo A) : fifo_empty q = true <-> flen q = 0.
Proof. unfold fifo_empty. apply Z.eqb_eq. Qed.

End FifoProofs.
