(* Operand addressing, extension and stores (C03). *)
From Coq Require Import ZArith Bool List.
From Dmd Require Import Model.Bits Model.Types Model.Bus Model.Decode Model.Cpu.
From Dmd Require Import Proofs.BitsLemmas.
Open Scope Z_scope.

Lemma add_offset_sext8 v e : add_offset v (sext8 e) = (v + s8 e) mod 2 ^ 32.
Proof.
  unfold add_offset, w32. rewrite sext8_spec. unfold w32.
  change 4294967296 with (2 ^ 32). rewrite Zplus_mod_idemp_r. reflexivity.
Qed.
Lemma add_offset_sext16 v e : add_offset v (sext16 e) = (v + s16 e) mod 2 ^ 32.
Proof.
  unfold add_offset, w32. rewrite sext16_spec. unfold w32.
  change 4294967296 with (2 ^ 32). rewrite Zplus_mod_idemp_r. reflexivity.
Qed.

(* the memory half of read_op / write_op: the access of an operand of type t once its effective address is known *)
Definition load (t : dtype) (eff : Z) : M Z := fun m =>
  match t with
  | DWord | DUWord => rd_word eff m
  | DHalf => bind (rd_half eff m) (fun v m => Ok (sext16 v) m)
  | DUHalf => rd_half eff m
  | DByte => rd_byte eff m
  | DSByte => bind (rd_byte eff m) (fun v m => Ok (sext8 v) m)
  | DNone => illegalM m
  end.
Definition store (t : dtype) (eff v : Z) : M unit := fun m =>
  match t with
  | DWord | DUWord => wr_word eff v m
  | DHalf | DUHalf => wr_half eff (w16 v) m
  | DByte | DSByte => wr_byte eff (w8 v) m
  | DNone => illegalM m
  end.

(* the architected effective address of each memory mode, as a function of the base register value and the
   embedded constant; None for the modes that first fetch a pointer *)
Definition arch_ea_direct (mode : addrmode) (base emb : Z) : option Z :=
  match mode with
  | MRegDeferred => Some base
  | MAbsolute => Some emb
  | MFpShort | MApShort | MByteDisp => Some ((base + s8 emb) mod 2 ^ 32)
  | MHalfDisp => Some ((base + s16 emb) mod 2 ^ 32)
  | MWordDisp => Some ((base + s32 emb) mod 2 ^ 32)
  | _ => None
  end.
Definition arch_ea_pointer (mode : addrmode) (base emb : Z) : option Z :=
  match mode with
  | MAbsoluteDeferred => Some emb
  | MByteDispDef => Some ((base + s8 emb) mod 2 ^ 32)
  | MHalfDispDef => Some ((base + s16 emb) mod 2 ^ 32)
  | MWordDispDef => Some ((base + s32 emb) mod 2 ^ 32)
  | _ => None
  end.

Definition base_value (m : mach) (o : operand) : Z :=
  match omode o with
  | MFpShort => R m R_FP
  | MApShort => R m R_AP
  | _ => match oreg o with Some r => R m r | None => 0 end
  end.

(* extension by operand type: what a value of each type becomes in the 32-bit datapath *)
Definition arch_extend (t : dtype) (raw : Z) : option Z :=
  match t with
  | DWord | DUWord => Some raw
  | DHalf => Some ((s16 raw) mod 2 ^ 32)
  | DUHalf => Some (raw mod 2 ^ 16)
  | DByte => Some (raw mod 2 ^ 8)             (* bytes are unsigned *)
  | DSByte => Some ((s8 raw) mod 2 ^ 32)
  | DNone => None
  end.

Lemma read_register_extension ir k m r :
  let o := get_op ir k in
  omode o = MRegister -> oreg o = Some r ->
  read_op ir k m = match arch_extend (data_type o) (R m r) with
                   | Some v => Ok v m
                   | None => Err (EExc IllegalOpcode) m end.
Proof.
  intros o Hm Hr. unfold read_op. fold o. cbv zeta. rewrite Hm, Hr.
  destruct (data_type o); cbn [arch_extend]; try reflexivity.
  - now rewrite sext16_spec.
  - now rewrite sext8_spec.
Qed.

Lemma write_register ir k v m r :
  let o := get_op ir k in
  omode o = MRegister -> oreg o = Some r -> write_op ir k v m = Ok tt (setR m r v).
Proof. intros o Hm Hr. unfold write_op. fold o. cbv zeta. now rewrite Hm, Hr. Qed.

Lemma write_memory_size ir k v m eff m1 :
  let o := get_op ir k in
  (match omode o with MRegister | MPosLit | MNegLit | MWordImm | MHalfImm | MByteImm => False | _ => True end) ->
  effective_address ir k m = Ok eff m1 ->
  write_op ir k v m =
  match data_type o with
  | DWord | DUWord => wr_word eff v m1
  | DHalf | DUHalf => wr_half eff (v mod 2 ^ 16) m1
  | DByte | DSByte => wr_byte eff (v mod 2 ^ 8) m1
  | DNone => Err (EExc IllegalOpcode) m1
  end.
Proof.
  intros o Hm He. unfold write_op. fold o. cbv zeta.
  destruct (omode o); try contradiction; rewrite He; cbn [bind]; destruct (data_type o); reflexivity.
Qed.

(* the descriptor behind an expanded-type prefix carries the prefix's type (`descriptor_inner_typed`); Props/C03.v
   derives from it that a descriptor without a prefix carries the type handed down from the previous operand and
   that whichever type it carries is handed on *)
Section Etype.
Variable St : Type.
Variable f1 f2 f4 : Z -> St -> res St Z.

(* a property of the operand a decoding step returns, if it returns one: it passes through the byte fetches *)
Definition typed (P : operand -> Prop) (r : res St (operand * Z)) : Prop :=
  match r with Ok (o, _) _ => P o | _ => True end.

Lemma typed_bind {A} P (r : res St A) k : (forall a s, typed P (k a s)) -> typed P (bind r k).
Proof. destruct r; cbn; auto. Qed.
Lemma typed_impl (P Q : operand -> Prop) r : (forall o, P o -> Q o) -> typed P r -> typed Q r.
Proof. destruct r as [[o l] s| | |]; cbn; auto. Qed.

(* after a prefix: every exit builds the operand with the two types it was given *)
Lemma descriptor_inner_typed fuel dt et len s :
  typed (fun o => oetype o = et /\ otype o = dt) (decode_descriptor St f1 f2 f4 fuel dt et true len s).
Proof.
  destruct fuel as [|fuel]; [exact I|]. cbn [decode_descriptor]. cbv zeta.
  apply typed_bind. intros [d l1] s1. cbn [fst snd andb].
  destruct (d mod 16 =? 15); cbn [negb];
    repeat match goal with |- typed _ (if ?c then _ else _) => destruct c end;
    try apply typed_bind; intros; cbn; auto.
Qed.

End Etype.
