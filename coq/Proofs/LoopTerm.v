(* Termination of the interpreter's data-driven loops (MOVBLW, STREND, the block-move list of a context switch)
   within the model's iteration bound.  The argument: every iteration reads the bus at consecutive addresses
   (stride 1 or 4) starting from R0; every mapped region of the 32-bit address space is followed by unmapped
   addresses, so a run of successful reads is at most 1 MiB long (the RAM region); the bound is larger. *)
From Coq Require Import ZArith Lia Bool List ZifyBool.
From Dmd Require Import Model.Bits Model.Types Model.Mem Model.Bus Model.Cpu.
From Dmd Require Import Proofs.RegKit Proofs.MemProofs Proofs.BusProofs.
Open Scope Z_scope.

Definition mapped (a : Z) : Prop := get_device a <> None.

Lemma read_ok_mapped w a m v m' : liftb (bus_read w a) m = Ok v m' -> mapped a.
Proof.
  unfold liftb, mapped. rewrite bus_read_route. destruct (aligned w a); [|discriminate].
  destruct (get_device a); [intros _|]; discriminate.
Qed.

Lemma get_device_none x :
  131072 <= x < 2097152 \/ 2097216 <= x < 4194304 \/ 4194308 <= x < 5242880 \/ 5242882 <= x < 6291456
  \/ 6299648 <= x < 7340032 \/ 8388608 <= x -> get_device x = None.
Proof.
  intros H. unfold get_device.
  repeat match goal with |- context [if ?c then _ else _] => destruct c eqn:? end; try reflexivity; lia.
Qed.

Lemma gap_ahead d a : 1 <= d <= 4 -> 0 <= a < 4294967296 ->
  exists k, 0 <= k /\ d * k <= 1048576 + 3 /\ ~ mapped (w32 (a + d * k)).
Proof.
  intros Hd Ha. unfold mapped.
  assert (K : forall hi, a < hi -> hi - a <= 1048576 -> hi + 4 <= 4294967296 ->
              (forall x, hi <= x < hi + 4 -> get_device x = None) ->
              exists k, 0 <= k /\ d * k <= 1048576 + 3 /\ ~ get_device (w32 (a + d * k)) <> None).
  { intros hi H1 H2 H3 H4. exists ((hi - a + d - 1) / d).
    assert (E : hi <= a + d * ((hi - a + d - 1) / d) < hi + d) by (Z.div_mod_to_equations; lia).
    assert (Hk : 0 <= (hi - a + d - 1) / d) by (apply Z.div_pos; lia).
    split; [exact Hk|]. split; [lia|]. unfold w32. rewrite Z.mod_small by lia. rewrite H4 by lia. tauto. }
  destruct (get_device a) eqn:G.
  2:{ exists 0. replace (a + d * 0) with a by lia. unfold w32. rewrite Z.mod_small by lia. rewrite G. split; [lia|]. split; [lia|tauto]. }
  unfold get_device in G.
  destruct (a <? 131072) eqn:C1; [apply (K 131072); try lia; intros; apply get_device_none; lia|].
  destruct ((2097152 <=? a) && (a <? 2097216)) eqn:C2; [apply (K 2097216); try lia; intros; apply get_device_none; lia|].
  destruct ((4194304 <=? a) && (a <? 4194308)) eqn:C3; [apply (K 4194308); try lia; intros; apply get_device_none; lia|].
  destruct ((5242880 <=? a) && (a <? 5242882)) eqn:C4; [apply (K 5242882); try lia; intros; apply get_device_none; lia|].
  destruct ((6291456 <=? a) && (a <? 6299648)) eqn:C5; [apply (K 6299648); try lia; intros; apply get_device_none; lia|].
  destruct ((7340032 <=? a) && (a <? 8388608)) eqn:C6; [apply (K 8388608); try lia; intros; apply get_device_none; lia|].
  discriminate.
Qed.

(* a run of n successful accesses at a, a+d, ..., ending with the pointer at b *)
Definition chain (d a b n : Z) : Prop :=
  0 <= n /\ b = w32 (a + d * n) /\ forall j, 0 <= j < n -> mapped (w32 (a + d * j)).

Lemma chain_zero d a : 0 <= a < 4294967296 -> chain d a a 0.
Proof. intros Ha. split; [lia|]. split; [|intros; lia]. unfold w32. rewrite Z.mod_small; lia. Qed.

Lemma chain_one d a : mapped a -> 0 <= a < 4294967296 -> chain d a (w32 (a + d)) 1.
Proof.
  intros M Ha. split; [lia|]. split; [f_equal; lia|]. intros j Hj. replace j with 0 by lia.
  replace (a + d * 0) with a by lia. unfold w32. rewrite Z.mod_small; auto.
Qed.

Lemma chain_app d a b c n k : chain d a b n -> chain d b c k -> chain d a c (n + k).
Proof.
  intros [Hn [Eb Mn]] [Hk [Ec Mk]]. split; [lia|]. split.
  - rewrite Ec, Eb. unfold w32. rewrite Zplus_mod_idemp_l. f_equal. lia.
  - intros j Hj. destruct (Z_lt_ge_dec j n) as [L|G]; [apply Mn; lia|].
    specialize (Mk (j - n) ltac:(lia)). rewrite Eb in Mk. unfold w32 in *. rewrite Zplus_mod_idemp_l in Mk.
    replace (a + d * n + d * (j - n)) with (a + d * j) in Mk by lia. exact Mk.
Qed.

Lemma chain_bound d a b n : 1 <= d <= 4 -> 0 <= a < 4294967296 -> chain d a b n -> d * n <= 1048576 + 3.
Proof.
  intros Hd Ha [Hn [_ M]]. destruct (gap_ahead d a Hd Ha) as [k [Hk [Hk2 U]]].
  destruct (Z_lt_ge_dec k n) as [L|G]; [exfalso; apply U; apply M; lia|]. nia.
Qed.

(* n turns of the body one after the other; `iter_loop` with binary fuel p is `iterN (Pos.to_nat p)` *)
Fixpoint iterN (n : nat) (body : mach -> lres) (m : mach) : lres :=
  match n with
  | O => LCont m
  | S k => match body m with LCont m1 => iterN k body m1 | r => r end
  end.

Lemma iterN_add a b body m :
  iterN (a + b) body m = match iterN a body m with LCont m' => iterN b body m' | r => r end.
Proof.
  revert m. induction a as [|a IH]; intros m; cbn [iterN Nat.add]; [reflexivity|].
  destruct (body m); auto.
Qed.

Lemma iterN_one body m : iterN 1 body m = body m.
Proof. cbn. destruct (body m); reflexivity. Qed.

Lemma iter_loop_iterN p body m : iter_loop p body m = iterN (Pos.to_nat p) body m.
Proof.
  revert m. induction p as [q IH|q IH|]; intros m; cbn [iter_loop].
  - rewrite Pos2Nat.inj_xI. replace (S (2 * Pos.to_nat q)) with (1 + (Pos.to_nat q + Pos.to_nat q))%nat by lia.
    rewrite iterN_add, iterN_one. destruct (body m) as [m1|m1|e m1| |]; auto.
    rewrite iterN_add, <- IH. destruct (iter_loop q body m1); auto.
  - rewrite Pos2Nat.inj_xO. replace (2 * Pos.to_nat q)%nat with (Pos.to_nat q + Pos.to_nat q)%nat by lia.
    rewrite iterN_add, <- IH. destruct (iter_loop q body m); auto.
  - rewrite Pos2Nat.inj_1, iterN_one. reflexivity.
Qed.

Section Progress.
Variable d : Z.
Hypothesis Hd : 1 <= d <= 4.
Variable body : mach -> lres.
Variable I : mach -> Prop.
Hypothesis I_range : forall m, I m -> 0 <= R m 0 < 4294967296.
Hypothesis body_cont : forall m m', I m -> body m = LCont m' ->
  I m' /\ exists n, 1 <= n /\ chain d (R m 0) (R m' 0) n.

Lemma iterN_chain : forall N m m', I m -> iterN N body m = LCont m' ->
  I m' /\ exists n, Z.of_nat N <= n /\ chain d (R m 0) (R m' 0) n.
Proof.
  induction N as [|N IH]; intros m m' Im E; cbn [iterN] in E.
  - injection E as <-. split; auto. exists 0. split; [lia|]. apply chain_zero; auto.
  - destruct (body m) as [m1|m1|e m1| |] eqn:B; try discriminate.
    destruct (body_cont m m1 Im B) as [I1 [n1 [H1 C1]]].
    destruct (IH m1 m' I1 E) as [I' [n2 [H2 C2]]].
    split; auto. exists (n1 + n2). split; [lia|]. eapply chain_app; eauto.
Qed.

Theorem loop_fuel_suffices m : I m -> forall m', iter_loop loop_fuel body m <> LCont m'.
Proof.
  intros Im m' E. rewrite iter_loop_iterN in E.
  destruct (iterN_chain _ m m' Im E) as [_ [n [Hn C]]].
  pose proof (chain_bound d _ _ n Hd (I_range m Im) C) as B.
  unfold loop_fuel in Hn. lia.
Qed.

Hypothesis body_done : forall m m', I m -> body m = LDone m' -> I m' /\ exists n, 0 <= n /\ chain d (R m 0) (R m' 0) n.

Lemma iterN_done : forall N m m', I m -> iterN N body m = LDone m' ->
  I m' /\ exists n, 0 <= n /\ chain d (R m 0) (R m' 0) n.
Proof.
  induction N as [|N IH]; intros m m' Im E; cbn [iterN] in E; [discriminate|].
  destruct (body m) as [m1|m1|e m1| |] eqn:B; try discriminate.
  - injection E as <-. apply (body_done m m1 Im B).
  - destruct (body_cont m m1 Im B) as [I1 [n1 [H1 C1]]].
    destruct (IH m1 m' I1 E) as [I' [n2 [H2 C2]]].
    split; auto. exists (n1 + n2). split; [lia|]. eapply chain_app; eauto.
Qed.

Lemma run_loop_done m m' : I m -> run_loop body m = Ok tt m' ->
  I m' /\ exists n, 0 <= n /\ chain d (R m 0) (R m' 0) n.
Proof.
  intros Im. unfold run_loop. destruct (iter_loop loop_fuel body m) as [m1|m1|e m1| |] eqn:E; try discriminate.
  intros H. injection H as <-. rewrite iter_loop_iterN in E. eapply iterN_done; eauto.
Qed.
End Progress.
