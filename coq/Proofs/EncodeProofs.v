(* C04: the decoder against the architected operand encoding.  `amode` is the WE32100 operand syntax, `enc_mode`
   the byte encoding the architecture manual gives for it (descriptor byte, then the constant least significant
   byte first), `enc_opnd` adds the optional expanded-type prefix.  The theorems say that on any byte source that
   holds the encoding at the current offset the decoder returns exactly that operand -- mode, register, constant,
   type, expanded type -- and the offset advanced by exactly the length of the encoding. *)
From Coq Require Import ZArith Lia Bool List ZifyBool.
From Dmd Require Import Model.Bits Model.Types Model.Decode.
From Dmd Require Import Proofs.DecodeProofs.
Import ListNotations.
Open Scope Z_scope.

Inductive dispsz := DispW | DispH | DispB.

Inductive amode :=
| A_PosLit (v : Z)                 (* &v, 0..63 *)
| A_NegLit (v : Z)                 (* &v-256, descriptor byte v = 0xF0..0xFF *)
| A_Reg (r : Z)                    (* %r *)
| A_RegDef (r : Z)                 (* (%r) *)
| A_FpShort (o : Z)                (* o(%fp), 0..14 *)
| A_ApShort (o : Z)                (* o(%ap), 0..14 *)
| A_WordImm (w : Z) | A_HalfImm (h : Z) | A_ByteImm (b : Z)
| A_Abs (w : Z)                    (* $addr *)
| A_AbsDef (w : Z)                 (* *$addr *)
| A_Disp (sz : dispsz) (deferred : bool) (r : Z) (c : Z).    (* c(%r) and *c(%r) *)

Definition le2 (h : Z) : list Z := [h mod 256; h / 256].
Definition le4 (w : Z) : list Z := [w mod 256; (w / 256) mod 256; (w / 65536) mod 256; w / 16777216].

Definition wf_amode (a : amode) : Prop :=
  match a with
  | A_PosLit v => 0 <= v < 64
  | A_NegLit v => 240 <= v < 256
  | A_Reg r => 0 <= r < 15
  | A_RegDef r => 0 <= r < 15 /\ r <> 11
  | A_FpShort o | A_ApShort o => 0 <= o < 15
  | A_WordImm w | A_Abs w | A_AbsDef w => 0 <= w < 4294967296
  | A_HalfImm h => 0 <= h < 65536
  | A_ByteImm b => 0 <= b < 256
  | A_Disp sz _ r c => 0 <= r < 16 /\ r <> 11 /\
      match sz with DispW => 0 <= c < 4294967296 | DispH => 0 <= c < 65536 | DispB => 0 <= c < 256 end
  end.

Definition disp_nibble (sz : dispsz) (deferred : bool) : Z :=
  match sz with DispW => 8 | DispH => 10 | DispB => 12 end + (if deferred then 1 else 0).
Definition disp_bytes (sz : dispsz) (c : Z) : list Z :=
  match sz with DispW => le4 c | DispH => le2 c | DispB => [c] end.

Definition enc_mode (a : amode) : list Z :=
  match a with
  | A_PosLit v | A_NegLit v => [v]
  | A_Reg r => [64 + r]
  | A_RegDef r => [80 + r]
  | A_FpShort o => [96 + o]
  | A_ApShort o => [112 + o]
  | A_WordImm w => 79 :: le4 w
  | A_HalfImm h => 95 :: le2 h
  | A_ByteImm b => [111; b]
  | A_Abs w => 127 :: le4 w
  | A_AbsDef w => 239 :: le4 w
  | A_Disp sz def r c => (16 * disp_nibble sz def + r) :: disp_bytes sz c
  end.

(* what the decoder must report: addressing mode, register, embedded constant *)
Definition arch_mode (a : amode) : addrmode * option Z * Z :=
  match a with
  | A_PosLit v => (MPosLit, None, v)
  | A_NegLit v => (MNegLit, None, v)
  | A_Reg r => (MRegister, Some r, 0)
  | A_RegDef r => (MRegDeferred, Some r, 0)
  | A_FpShort o => (MFpShort, Some 9, o)
  | A_ApShort o => (MApShort, Some 10, o)
  | A_WordImm w => (MWordImm, None, w)
  | A_HalfImm h => (MHalfImm, None, h)
  | A_ByteImm b => (MByteImm, None, b)
  | A_Abs w => (MAbsolute, None, w)
  | A_AbsDef w => (MAbsoluteDeferred, None, w)
  | A_Disp DispW false r c => (MWordDisp, Some r, c)
  | A_Disp DispW true r c => (MWordDispDef, Some r, c)
  | A_Disp DispH false r c => (MHalfDisp, Some r, c)
  | A_Disp DispH true r c => (MHalfDispDef, Some r, c)
  | A_Disp DispB false r c => (MByteDisp, Some r, c)
  | A_Disp DispB true r c => (MByteDispDef, Some r, c)
  end.

Definition opnd_is (o : operand) (a : amode) (dt : dtype) (et : option dtype) : Prop :=
  (omode o, oreg o, oemb o) = arch_mode a /\ otype o = dt /\ oetype o = et.

Definition window (bs : list Z) (len : Z) (enc : list Z) : Prop :=
  forall i, (i < length enc)%nat -> byte_at bs (len + Z.of_nat i) = Some (nth i enc 0).

Lemma window_0 bs len d t : window bs len (d :: t) -> byte_at bs len = Some d.
Proof. intros W. specialize (W 0%nat ltac:(cbn; lia)). now replace (len + Z.of_nat 0) with len in W by lia. Qed.
Lemma window_tl bs len d t : window bs len (d :: t) -> window bs (len + 1) t.
Proof.
  intros W i Hi. specialize (W (S i) ltac:(cbn; lia)). cbn [nth] in W.
  now replace (len + Z.of_nat (S i)) with (len + 1 + Z.of_nat i) in W by lia.
Qed.

Section OnBytes.
Variable bs : list Z.
Notation dd := (decode_descriptor unit (bfetch1 bs) (bfetch2 bs) (bfetch4 bs)).

Lemma acc_byte_at len d : byte_at bs len = Some d -> len < 32 ->
  acc_byte unit (bfetch1 bs) len tt = Ok (d, len + 1) tt.
Proof. intros E H. unfold acc_byte, bfetch1. rewrite E. cbn [bind]. now replace (len >=? 32) with false by lia. Qed.

Lemma acc_half_at len h : window bs len (le2 h) -> len + 2 <= 32 ->
  acc_half unit (bfetch2 bs) len tt = Ok (h, len + 2) tt.
Proof.
  intros W H. pose proof (window_0 _ _ _ _ W) as E0. pose proof (window_0 _ _ _ _ (window_tl _ _ _ _ W)) as E1.
  unfold acc_half, bfetch2. rewrite E0, E1. cbn [bind]. replace (len + 1 >=? 32) with false by lia.
  f_equal. f_equal. Z.div_mod_to_equations. lia.
Qed.

Lemma acc_word_at len w : window bs len (le4 w) -> len + 4 <= 32 ->
  acc_word unit (bfetch4 bs) len tt = Ok (w, len + 4) tt.
Proof.
  intros W H. pose proof (window_0 _ _ _ _ W) as E0.
  pose proof (window_tl _ _ _ _ W) as W1. pose proof (window_0 _ _ _ _ W1) as E1.
  pose proof (window_tl _ _ _ _ W1) as W2. pose proof (window_0 _ _ _ _ W2) as E2.
  pose proof (window_tl _ _ _ _ W2) as W3. pose proof (window_0 _ _ _ _ W3) as E3.
  replace (len + 1 + 1) with (len + 2) in * by lia. replace (len + 2 + 1) with (len + 3) in * by lia.
  unfold acc_word, bfetch4. rewrite E0, E1, E2, E3. cbn [bind]. replace (len + 3 >=? 32) with false by lia.
  f_equal. f_equal. Z.div_mod_to_equations. lia.
Qed.

Lemma nibbles m r : 0 <= r < 16 -> (16 * m + r) / 16 = m /\ (16 * m + r) mod 16 = r.
Proof. intros H. Z.div_mod_to_equations. lia. Qed.

(* `nib m r`: the descriptor byte in the goal is 16 * m + r; its quotient and remainder by 16 become m and r.
   `konst` evaluates comparisons and sums of numerals only (bare `cbn` would unfold the decoder). *)
Ltac nib m r :=
  match goal with |- context [?d / 16] =>
    replace d with (16 * m + r) by lia; destruct (nibbles m r ltac:(lia)) as [-> ->] end.
Ltac konst := cbn [Z.leb Z.eqb Z.compare Pos.compare Pos.compare_cont Pos.eqb andb negb orb Z.add Pos.add Pos.succ].
Ltac is_opnd := unfold opnd_is; cbn [omode oreg oemb otype oetype arch_mode fst snd]; auto.
(* the constant that follows the descriptor byte, then the result *)
Ltac const W Hl :=
  first [rewrite (acc_word_at _ _ (window_tl _ _ _ _ W)) by (cbn in Hl; lia)
        |rewrite (acc_half_at _ _ (window_tl _ _ _ _ W)) by (cbn in Hl; lia)
        |rewrite (acc_byte_at _ _ (window_0 _ _ _ _ (window_tl _ _ _ _ W))) by (cbn in Hl; lia)];
  cbn [bind fst snd]; eexists; split; [f_equal; f_equal; cbn; lia|is_opnd].

Lemma decode_mode a dt et recur len fuel :
  wf_amode a -> window bs len (enc_mode a) -> 0 <= len -> len + Z.of_nat (length (enc_mode a)) <= 32 ->
  exists o, dd (S fuel) dt et recur len tt = Ok (o, len + Z.of_nat (length (enc_mode a))) tt /\ opnd_is o a dt et.
Proof.
  intros Wf W H0 Hl. cbn [decode_descriptor].
  destruct a as [v|v|r|r|o|o|w|h|b|w|w|sz def r c]; cbn [enc_mode length] in *; cbn [wf_amode] in Wf;
    rewrite (acc_byte_at len _ (window_0 _ _ _ _ W)) by lia; cbn [bind fst snd]; cbv zeta.
  - replace (v / 16 <=? 3) with true by (Z.div_mod_to_equations; lia). eexists; split; [reflexivity|is_opnd].
  - replace (v / 16) with 15 by (Z.div_mod_to_equations; lia). konst. eexists; split; [reflexivity|is_opnd].
  - nib 4 r. konst. replace (r =? 15) with false by lia. eexists; split; [reflexivity|is_opnd].
  - nib 5 r. konst. replace (r =? 15) with false by lia. replace (r =? 11) with false by lia.
    eexists; split; [reflexivity|is_opnd].
  - nib 6 o. konst. replace (o =? 15) with false by lia. eexists; split; [reflexivity|is_opnd].
  - nib 7 o. konst. replace (o =? 15) with false by lia. eexists; split; [reflexivity|is_opnd].
  - (* the immediates and absolute modes: register nibble 15 *)
    nib 4 15. konst. const W Hl.
  - nib 5 15. konst. const W Hl.
  - nib 6 15. konst. const W Hl.
  - nib 7 15. konst. const W Hl.
  - (* absolute deferred: 0xEF is not a prefix *)
    nib 14 15. konst. rewrite andb_false_r. const W Hl.
  - destruct Wf as [Hr [Hr11 Hc]].
    destruct sz, def; unfold disp_nibble, disp_bytes in *;
      match goal with |- context [16 * (?k + ?d) + r] => let m := eval compute in (k + d) in nib m r end;
      konst; replace (r =? 11) with false by lia; const W Hl.
Qed.
End OnBytes.

Definition etype_code (t : dtype) : option Z :=
  match t with
  | DUWord => Some 0 | DUHalf => Some 2 | DByte => Some 3 | DWord => Some 4 | DHalf => Some 6 | DSByte => Some 7
  | DNone => None
  end.

Lemma etype_of_code t c : etype_code t = Some c -> etype_of c = Some t /\ 0 <= c <= 7.
Proof. destruct t; cbn; intros H; inversion H; subst; cbn; split; auto; lia. Qed.

Definition enc_opnd (t : option dtype) (a : amode) : list Z :=
  match t with
  | Some t => match etype_code t with Some c => (224 + c) :: enc_mode a | None => [] end
  | None => enc_mode a
  end.
Definition wf_opnd (t : option dtype) (a : amode) : Prop :=
  wf_amode a /\ match t with Some t => etype_code t <> None | None => True end.
Definition et_after (t et : option dtype) : option dtype := match t with Some t => Some t | None => et end.

Section OnBytes2.
Variable bs : list Z.
Notation dd := (decode_descriptor unit (bfetch1 bs) (bfetch2 bs) (bfetch4 bs)).

Theorem decode_opnd t a dt et len fuel :
  wf_opnd t a -> window bs len (enc_opnd t a) -> 0 <= len -> len + Z.of_nat (length (enc_opnd t a)) <= 32 ->
  (2 <= fuel)%nat ->
  exists o, dd fuel dt et false len tt = Ok (o, len + Z.of_nat (length (enc_opnd t a))) tt
            /\ opnd_is o a dt (et_after t et).
Proof.
  intros [Wa Wt] W H0 Hl Hf. destruct fuel as [|[|fuel]]; try lia.
  destruct t as [t|]; cbn [enc_opnd et_after] in *.
  - destruct (etype_code t) as [c|] eqn:Ec; [|congruence].
    destruct (etype_of_code t c Ec) as [Eo Hc].
    cbn [length] in Hl.
    destruct (decode_mode bs a dt (Some t) true (len + 1) fuel Wa (window_tl _ _ _ _ W) ltac:(lia) ltac:(lia)) as [o [E O]].
    exists o. split; [|exact O].
    remember (S fuel) as f1 eqn:Hf1. (* so that `cbn [decode_descriptor]` unfolds the outer call only *)
    cbn [decode_descriptor]. rewrite (acc_byte_at bs len _ (window_0 _ _ _ _ W)) by lia. cbn [bind fst snd]. cbv zeta.
    replace (224 + c) with (16 * 14 + c) by lia. destruct (nibbles 14 c ltac:(lia)) as [-> ->].
    cbn [Z.leb Z.eqb Z.compare Pos.compare Pos.compare_cont Pos.eqb andb negb].
    replace (c =? 15) with false by lia. rewrite Eo.
    rewrite E. f_equal. f_equal. cbn [length]. lia.
  - apply decode_mode; auto.
Qed.

Inductive aarg := ArgLit (v : Z) | ArgOp (t : option dtype) (a : amode).

Definition lit_bytes (dt : dtype) (v : Z) : list Z :=
  match dt with DByte => [v] | DHalf => le2 v | DWord => le4 v | _ => [] end.
Definition wf_lit (dt : dtype) (v : Z) : Prop :=
  match dt with DByte => 0 <= v < 256 | DHalf => 0 <= v < 65536 | DWord => 0 <= v < 4294967296 | _ => False end.

Fixpoint enc_args (dt : dtype) (ots : list optype) (args : list aarg) : list Z :=
  match ots with
  | [] => []
  | ONone :: rest => enc_args dt rest args
  | OLit :: rest => match args with ArgLit v :: more => lit_bytes dt v ++ enc_args dt rest more | _ => [] end
  | _ :: rest => match args with ArgOp t a :: more => enc_opnd t a ++ enc_args dt rest more | _ => [] end
  end.

Fixpoint args_fit (dt : dtype) (ots : list optype) (args : list aarg) : Prop :=
  match ots with
  | [] => args = []
  | ONone :: rest => args_fit dt rest args
  | OLit :: rest => match args with ArgLit v :: more => wf_lit dt v /\ args_fit dt rest more | _ => False end
  | _ :: rest => match args with ArgOp t a :: more => wf_opnd t a /\ args_fit dt rest more | _ => False end
  end.

Fixpoint ops_are (dt : dtype) (et : option dtype) (ots : list optype) (args : list aarg) (os : list operand) : Prop :=
  match ots with
  | [] => os = []
  | ONone :: rest => match os with o :: os' => o = operand_clear /\ ops_are dt et rest args os' | [] => False end
  | OLit :: rest =>
      match args, os with
      | ArgLit v :: more, o :: os' =>
          (omode o = MNone /\ oemb o = v /\ otype o = dt /\ oetype o = None /\ oreg o = None) /\ ops_are dt None rest more os'
      | _, _ => False end
  | _ :: rest =>
      match args, os with
      | ArgOp t a :: more, o :: os' => opnd_is o a dt (et_after t et) /\ ops_are dt (et_after t et) rest more os'
      | _, _ => False end
  end.

Lemma window_app_l len x y : window bs len (x ++ y) -> window bs len x.
Proof.
  intros W i Hi. specialize (W i ltac:(rewrite app_length; lia)). now rewrite app_nth1 in W by lia.
Qed.
Lemma window_app_r len x y : window bs len (x ++ y) -> window bs (len + Z.of_nat (length x)) y.
Proof.
  intros W i Hi. specialize (W (length x + i)%nat ltac:(rewrite app_length; lia)).
  rewrite app_nth2 in W by lia. replace (length x + i - length x)%nat with i in W by lia.
  now replace (len + Z.of_nat (length x + i)) with (len + Z.of_nat (length x) + Z.of_nat i) in W by lia.
Qed.

Lemma decode_literal_enc dt v len :
  wf_lit dt v -> window bs len (lit_bytes dt v) -> len + Z.of_nat (length (lit_bytes dt v)) <= 32 ->
  exists o, decode_literal_operand unit (bfetch1 bs) (bfetch2 bs) (bfetch4 bs) dt len tt
            = Ok (o, len + Z.of_nat (length (lit_bytes dt v))) tt
            /\ omode o = MNone /\ oemb o = v /\ otype o = dt /\ oetype o = None /\ oreg o = None.
Proof.
  intros Wf W Hl. destruct dt; cbn [wf_lit] in Wf; try contradiction; cbn [lit_bytes decode_literal_operand] in *.
  - rewrite (acc_byte_at bs len v (window_0 _ _ _ _ W)) by (cbn in Hl; lia). cbn [bind fst snd].
    eexists; split; [f_equal; f_equal; cbn; lia|cbn; auto].
  - rewrite (acc_half_at bs len v W) by (cbn in Hl; lia). cbn [bind fst snd].
    eexists; split; [f_equal; f_equal; cbn; lia|cbn; auto].
  - rewrite (acc_word_at bs len v W) by (cbn in Hl; lia). cbn [bind fst snd].
    eexists; split; [f_equal; f_equal; cbn; lia|cbn; auto].
Qed.

Lemma decode_ops_enc mn : forall ots args et len,
  args_fit (mn_dtype mn) ots args -> window bs len (enc_args (mn_dtype mn) ots args) -> 0 <= len ->
  len + Z.of_nat (length (enc_args (mn_dtype mn) ots args)) <= 32 ->
  exists os, decode_ops unit (bfetch1 bs) (bfetch2 bs) (bfetch4 bs) mn ots et len tt
             = Ok (os, len + Z.of_nat (length (enc_args (mn_dtype mn) ots args))) tt
             /\ ops_are (mn_dtype mn) et ots args os.
Proof.
  induction ots as [|ot rest IH]; intros args et len F W H0 Hl.
  - cbn in *. exists []. split; [f_equal; f_equal; lia|reflexivity].
  - destruct ot; cbn [enc_args args_fit] in *.
    4: { (* unused slot *)
      destruct (IH args et len F W H0 Hl) as [os [E2 O2]].
      exists (operand_clear :: os). cbn [decode_ops]. rewrite E2. cbn [bind fst snd]. split; auto. cbn [ops_are]. auto. }
    1: { (* literal *)
      destruct args as [|[v|t a] more]; try contradiction. destruct F as [Wv F].
      rewrite app_length in Hl.
      destruct (decode_literal_enc (mn_dtype mn) v len Wv (window_app_l _ _ _ W) ltac:(lia)) as [o [E O]].
      destruct (IH more None _ F (window_app_r _ _ _ W) ltac:(lia) ltac:(lia)) as [os [E2 O2]].
      exists (o :: os). cbn [decode_ops decode_operand]. rewrite E. cbn [bind fst snd].
      replace (oetype o) with (@None dtype) by (symmetry; tauto). rewrite E2. cbn [bind fst snd].
      split; [f_equal; f_equal; rewrite app_length; lia|]. cbn [ops_are]. split; auto. }
    (* source and destination operands are decoded alike *)
    all: destruct args as [|[v|t a] more]; try contradiction; destruct F as [Wo F]; rewrite app_length in Hl.
    all: destruct (decode_opnd t a (mn_dtype mn) et len 3 Wo (window_app_l _ _ _ W) H0 ltac:(lia) ltac:(lia)) as [o [E O]].
    all: destruct (IH more (et_after t et) _ F (window_app_r _ _ _ W) ltac:(lia) ltac:(lia)) as [os [E2 O2]].
    all: exists (o :: os); cbn [decode_ops decode_operand]; rewrite E; cbn [bind fst snd].
    all: replace (oetype o) with (et_after t et) by (symmetry; apply O); rewrite E2; cbn [bind fst snd].
    all: split; [f_equal; f_equal; rewrite app_length; lia|]; cbn [ops_are]; split; auto.
Qed.

(* the instruction: opcode byte(s) of a table row (one byte, or 0x30 and the low byte), then the operands *)
Definition opcode_bytes (mn : mnemonic) : list Z :=
  if mn_opcode mn <? 256 then [mn_opcode mn] else [48; mn_opcode mn mod 256].
Definition enc_instr (mn : mnemonic) (args : list aarg) : list Z :=
  opcode_bytes mn ++ enc_args (mn_dtype mn) (mn_ops mn) args.

Definition in_table (mn : mnemonic) : Prop :=
  (0 <= mn_opcode mn < 256 /\ mn_opcode mn <> 48 /\ lookup_mnemonic (mn_opcode mn) None = Some mn)
  \/ (12288 <= mn_opcode mn < 12544 /\ lookup_mnemonic 48 (Some (mn_opcode mn mod 256)) = Some mn).

Theorem decode_encoded_instruction mn args :
  in_table mn -> args_fit (mn_dtype mn) (mn_ops mn) args -> window bs 0 (enc_instr mn args) ->
  Z.of_nat (length (enc_instr mn args)) <= 32 ->
  exists i, decode_bytes bs = Ok i tt
    /\ iopcode i = mn_opcode mn
    /\ ilen i = Z.of_nat (length (enc_instr mn args))
    /\ exists os, ops_are (mn_dtype mn) None (mn_ops mn) args os
         /\ op0 i = nth 0 os operand_clear /\ op1 i = nth 1 os operand_clear
         /\ op2 i = nth 2 os operand_clear /\ op3 i = nth 3 os operand_clear.
Proof.
  intros T F W Hl. unfold decode_bytes, decode_instruction. unfold enc_instr in *. rewrite app_length in Hl.
  destruct T as [[Ho [N48 L]]|[Ho L]]; unfold opcode_bytes in *.
  (* one opcode byte, or the 0x30 escape and a second one; W2: the operands follow *)
  1: replace (mn_opcode mn <? 256) with true in * by lia.
  2: replace (mn_opcode mn <? 256) with false in * by lia.
  all: cbn [length app] in *; rewrite (acc_byte_at bs 0 _ (window_0 _ _ _ _ W)) by lia; cbn [bind fst snd].
  1: replace (mn_opcode mn =? 48) with false by lia. 1: pose proof (window_tl _ _ _ _ W) as W2.
  2: change (48 =? 48) with true; cbv iota.
  2: rewrite (acc_byte_at bs (0 + 1) _ (window_0 _ _ _ _ (window_tl _ _ _ _ W))) by lia.
  2: pose proof (window_tl _ _ _ _ (window_tl _ _ _ _ W)) as W2.
  all: cbn [bind fst snd]; rewrite L.
  all: destruct (decode_ops_enc mn (mn_ops mn) args None _ F W2 ltac:(lia) ltac:(lia)) as [os [E O]].
  all: rewrite E; cbn [bind fst snd]; eexists; split; [reflexivity|]; cbn [iopcode ilen op0 op1 op2 op3].
  all: split; [reflexivity|]; split; [lia|]; exists os; auto.
Qed.
End OnBytes2.

(* an operand list that fits and its encoding:  ADDW3 {sbyte}4(%r1), $0x12345678, *$0x700100  : 14 bytes *)
Example encoded_instruction_example :
  let mn := mkMn 220 DWord 0 [OSrc; OSrc; ODest; ONone] in
  let args := [ArgOp (Some DSByte) (A_Disp DispB false 1 4); ArgOp None (A_Abs 305419896); ArgOp None (A_AbsDef 7340288)] in
  args_fit DWord (mn_ops mn) args
  /\ enc_instr mn args = [220; 231; 193; 4; 127; 120; 86; 52; 18; 239; 0; 1; 112; 0].
Proof. cbv zeta. split; [cbn; repeat split; try lia; discriminate | reflexivity]. Qed.
