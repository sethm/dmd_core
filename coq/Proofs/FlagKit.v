(* The condition codes as single bits of the PSW: reading a flag back after flag updates, and bits of not32. *)
From Coq Require Import ZArith Lia Bool.
From Dmd Require Import Model.Bits Model.Cpu.
From Dmd Require Import Proofs.BitsLemmas Proofs.BitKit Proofs.RegKit.
Open Scope Z_scope.

Lemma not32_testbit x k : 0 <= k < 32 -> Z.testbit (not32 x) k = negb (Z.testbit x k).
Proof.
  intros Hk. unfold not32. replace (4294967295 - x) with (Z.lnot x + 1 * 2 ^ 32) by (unfold Z.lnot; lia).
  rewrite <- Z.mod_pow2_bits_low with (n := 32) by lia.
  rewrite Z.mod_add by lia. rewrite Z.mod_pow2_bits_low by lia. apply Z.lnot_spec. lia.
Qed.

Lemma flag_setf k j v m : 0 <= k < 32 -> 0 <= j < 32 ->
  flag (2 ^ j) (setf (2 ^ k) v m) = if j =? k then v else flag (2 ^ j) m.
Proof.
  intros Hk Hj. unfold flag, setf, setPSW, PSW. rewrite R_setR_same, !bset_pow2 by lia.
  destruct v; [rewrite Z.lor_spec | unfold clr32; rewrite Z.land_spec, not32_testbit by lia];
    rewrite Z.pow2_bits_eqb, (Z.eqb_sym k j) by lia; destruct (j =? k), (Z.testbit (R m R_PSW) j); reflexivity.
Qed.

(* N, Z, V, C are bits 21 .. 18 *)
Ltac flags :=
  unfold set_n, set_z, set_v, set_c, F_N, F_Z, F_V, F_C;
  change 2097152 with (2 ^ 21); change 1048576 with (2 ^ 20); change 524288 with (2 ^ 19); change 262144 with (2 ^ 18);
  rewrite !flag_setf by lia; cbn [Z.eqb Pos.eqb].

Lemma nzvc_after n z v c m :
  let m' := set_v v (set_c c (set_z z (set_n n m))) in
  flag F_N m' = n /\ flag F_Z m' = z /\ flag F_V m' = v /\ flag F_C m' = c.
Proof. cbv zeta. repeat split; flags; reflexivity. Qed.

Lemma R_flags_other n z v c m i : 0 <= i <= 15 -> i <> 11 ->
  R (set_v v (set_c c (set_z z (set_n n m)))) i = R m i.
Proof. intros. unfold set_v, set_c, set_z, set_n. rewrite !R_setf_other by lia. reflexivity. Qed.

(* N and Z are different PSW bits: the order of the two updates does not matter.  clr32 also drops any bit of
   the PSW above bit 31, which is why the comparison is made for every bit index. *)
Lemma set_n_z_comm a b m : set_n a (set_z b m) = set_z b (set_n a m).
Proof.
  unfold set_n, set_z, setf, setPSW, PSW. rewrite !R_setR_same, !setR_setR_same. f_equal.
  unfold clr32, F_N, F_Z. apply Z.bits_inj'. intros n Hn.
  assert (Hi : forall x, 0 <= x < 4294967296 -> Z.testbit (not32 x) n = (n <? 32) && negb (Z.testbit x n)).
  { intros x Hx. destruct (Z.ltb_spec n 32); [apply not32_testbit; lia|].
    rewrite testbit_small by (unfold not32; lia). reflexivity. }
  change 2097152 with (2 ^ 21). change 1048576 with (2 ^ 20).
  destruct a, b; rewrite ?Z.lor_spec, ?Z.land_spec, ?Z.lor_spec, ?Z.land_spec, ?Hi by (cbn; lia);
    rewrite ?Z.pow2_bits_eqb by lia;
    destruct (Z.eqb_spec 21 n), (Z.eqb_spec 20 n), (Z.ltb_spec n 32); try lia; destruct (Z.testbit (R m R_PSW) n); reflexivity.
Qed.
