(* C02: the arithmetic the ALU arms perform, against mathematical definitions on Z. *)
From Coq Require Import ZArith Lia Bool List ZifyBool.
From Dmd Require Import Model.Bits Model.Types Model.Bus Model.Cpu.
From Dmd Require Import Proofs.BitsLemmas Proofs.BitKit Proofs.FlagKit.
Open Scope Z_scope.

Lemma add_result_mod a b : w32 (a + b) = (a + b) mod 2 ^ 32.
Proof. reflexivity. Qed.
Lemma sub_result_mod a b : w32 (a - b) = (a - b) mod 2 ^ 32.
Proof. reflexivity. Qed.
Lemma mul_result_mod a b : w32 (a * b) = (a * b) mod 2 ^ 32.
Proof. reflexivity. Qed.

Lemma testbit31_spec x : 0 <= x < 4294967296 -> Z.testbit x 31 = (2147483648 <=? x).
Proof.
  intros H. rewrite Z.testbit_odd, Z.shiftr_div_pow2 by lia. change (2 ^ 31) with 2147483648.
  destruct (2147483648 <=? x) eqn:E.
  - assert (x / 2147483648 = 1) as -> by (Z.div_mod_to_equations; lia). reflexivity.
  - assert (x / 2147483648 = 0) as -> by (Z.div_mod_to_equations; lia). reflexivity.
Qed.

(* signed overflow of word additions: the (a ^ ~b) & (a ^ r) formula of Cpu::add *)
Lemma add_overflow_word a b :
  0 <= a < 4294967296 -> 0 <= b < 4294967296 ->
  bset (Z.land (Z.lxor a (not32 b)) (Z.lxor a (w32 (a + b)))) 2147483648
  = negb ((-2147483648 <=? s32 a + s32 b) && (s32 a + s32 b <? 2147483648)).
Proof.
  intros Ha Hb. change 2147483648 with (2 ^ 31) at 1. rewrite bset_pow2 by lia.
  rewrite Z.land_spec, !Z.lxor_spec, not32_testbit by lia.
  pose proof (w32_range (a + b)) as Hr. rewrite !testbit31_spec by lia.
  (* the sum wraps at most once; the rest is a comparison of signs *)
  assert (Hw : w32 (a + b) = a + b \/ w32 (a + b) = a + b - 4294967296) by (unfold w32; Z.div_mod_to_equations; lia).
  unfold s32. destruct (a <? 2147483648) eqn:Ea, (b <? 2147483648) eqn:Eb; lia.
Qed.

(* the most negative value divided by minus one wraps (no failure) *)
Lemma min_div_minus_one_wraps :
  div_val 4294967295 2147483648 DWord = Some 2147483648
  /\ mod_val 4294967295 2147483648 DWord = Some 0
  /\ div_val 4294967295 4294934528 DHalf = Some 4294934528
  /\ mod_val 4294967295 4294934528 DHalf = Some 0.
Proof. vm_compute. auto. Qed.

Lemma div_zero_none a b t : (match t with DWord => s32 a | DHalf => s16 a | DSByte => s8 a | DUHalf => w16 a
                                     | DByte => w8 a | _ => a end) = 0 ->
  div_val a b t = None /\ mod_val a b t = None.
Proof. intros H. unfold div_val, mod_val. destruct t; rewrite H; auto. Qed.

Lemma div_by_zero_faults ir m dst oa ob m1 m2 b :
  read_op ir 0 m = Ok 0 m1 -> read_op ir 1 m1 = Ok b m2 ->
  div_arm ir dst oa ob m = Err (EExc IntegerZeroDivide) m2 /\ mod_arm ir dst m = Err (EExc IntegerZeroDivide) m2.
Proof. intros H0 H1. unfold div_arm, mod_arm, bind. rewrite H0, H1. cbn. auto. Qed.

