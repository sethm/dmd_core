(* The clock-select codes C17 ranges over, and the mouse-button theorems (C20). *)
From Coq Require Import ZArith Bool List.
From Dmd Require Import Model.Bits Model.Mem Model.Duart.
From Dmd Require Import Proofs.BitKit Proofs.PortProofs Proofs.DuartProofs.
Open Scope Z_scope.

Local Arguments bset : simpl never.
Local Arguments clr8 : simpl never.
Local Arguments Z.lor : simpl never.
Local Arguments Z.land : simpl never.
Local Arguments Z.gtb : simpl never.

Definition all_codes : list Z := [0; 1; 2; 3; 4; 5; 6; 7; 8; 9; 10; 11; 12].

Lemma button_event_raises_request d b :
  bset (ivec (mouse_down d b)) MOUSE_BLANK_INT = true /\ bset (isr (mouse_down d b)) ISTS_IPC = true
  /\ bset (ivec (mouse_up d b)) MOUSE_BLANK_INT = true /\ bset (isr (mouse_up d b)) ISTS_IPC = true.
Proof.
  unfold mouse_down, mouse_up, isr_set, ivec_set.
  repeat match goal with |- context [if ?c then _ else _] => destruct c end; cbn; repeat split; dbits.
Qed.

Definition button_bit (b : Z) : Z := if b =? 0 then 8 else if b =? 1 then 2 else 1.
Definition change_bit (b : Z) : Z := if b =? 0 then 128 else if b =? 1 then 32 else 16.

Lemma button_levels d b : b = 0 \/ b = 1 \/ b = 2 ->
  bset (inprt (mouse_down d b)) (button_bit b) = false        (* pressed: input low *)
  /\ bset (ipcr (mouse_down d b)) (change_bit b) = true
  /\ bset (inprt (mouse_up d b)) (button_bit b) = true        (* released: input high *)
  /\ bset (ipcr (mouse_up d b)) (change_bit b) = true.
Proof.
  intros [-> | [-> | ->]]; unfold mouse_down, mouse_up, isr_set, ivec_set, button_bit, change_bit; cbn;
    repeat split; bits.
Qed.

Lemma other_buttons_only_request d b : b <> 0 -> b <> 1 -> b <> 2 ->
  ipcr (mouse_down d b) = 0 /\ ipcr (mouse_up d b) = 0
  /\ inprt (mouse_down d b) = Z.lor (inprt d) 11 /\ inprt (mouse_up d b) = Z.lor (inprt d) 11
  /\ pa (mouse_down d b) = pa d /\ pb (mouse_down d b) = pb d /\ pa (mouse_up d b) = pa d /\ pb (mouse_up d b) = pb d.
Proof.
  intros N0 N1 N2. unfold mouse_down, mouse_up, isr_set, ivec_set.
  apply Z.eqb_neq in N0, N1, N2. rewrite N0, N1, N2. cbn. auto 10.
Qed.

(* the request stays asserted across every operation except the read of the input-port-change register *)
Lemma request_until_ipcr_read o d :
  bset (ivec d) MOUSE_BLANK_INT = true ->
  (forall off, o = DRead off -> w8 off <> 19) ->
  bset (ivec (dstep o d)) MOUSE_BLANK_INT = true.
Proof.
  intros H Hn. destruct o; cbn [dstep].
  - specialize (Hn off eq_refl). apply Z.eqb_neq in Hn. unfold duart_read_byte. rewrite Hn.
    unfold isr_clr, ivec_clr.
    repeat match goal with |- context [if ?c then _ else _] => destruct c end; cbn; try exact H.
    all: try (destruct (rx_read_char _); cbn); dbits.
  - unfold duart_write_byte. cbv zeta. remember (w8 off) as x eqn:Ex. clear Ex.
    off_cases x; try exact H; rewrite handle_command_ivec; cbv zeta;
      destruct (bset _ CMD_DRX), (bset _ CMD_DTX); try destruct (bset _ CMD_ETX); cbn; dbits.
  - exact H.
  - destruct (get_interrupt_spec tm d) as (_ & _ & Iv & _). rewrite Iv. dbits.
  - exact H.
  - exact H.
  - unfold duart_rs232_tx. destruct (host_poll (pa d)); exact H.
  - unfold duart_keyboard_tx. destruct (host_poll (pb d)); exact H.
  - apply button_event_raises_request.
  - apply button_event_raises_request.
Qed.
