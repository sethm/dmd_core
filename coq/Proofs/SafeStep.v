(* C12 for a whole step: decode on the machine, dispatch, step_with_error; and what a run of steps is. *)
From Coq Require Import ZArith Lia Bool List ZifyBool.
From Dmd Require Import Model.Bits Model.Types Model.Mem Model.Duart Model.Bus Model.Decode Model.Cpu.

From Dmd Require Import Proofs.SafeBus Proofs.DecodeProofs Proofs.SafeCpu.
Open Scope Z_scope.

Section Step.
Variable m0 : mach.

Lemma pc_off_nonneg m off : st m0 m -> 0 <= off -> 0 <= R m R_PC + off.
Proof. intros S Ho. pose proof (R_range m0 m R_PC S). unfold W32 in *. lia. Qed.

Lemma safe_fetch1 off m : st m0 m -> 0 <= off -> safe m0 (fun v => 0 <= v < 256) (fetch1 off m).
Proof. intros S Ho. apply safe_rd_byte; auto using pc_off_nonneg. Qed.
Lemma safe_fetch2 off m : st m0 m -> 0 <= off -> safe m0 (fun v => 0 <= v < 65536) (fetch2 off m).
Proof. intros S Ho. apply safe_liftb; auto. apply bus_read_op_half_safe; [apply S | auto using pc_off_nonneg]. Qed.
Lemma safe_fetch4 off m : st m0 m -> 0 <= off -> safe m0 W32 (fetch4 off m).
Proof. intros S Ho. apply safe_liftb; auto. apply bus_read_op_word_safe; [apply S | auto using pc_off_nonneg]. Qed.

(* `safe` in the two forms the decoder lemmas take their fetchers in *)
Lemma safe_fetch_safe (P : Z -> Prop) f :
  (forall off m, st m0 m -> 0 <= off -> safe m0 P (f off m)) -> (forall v, P v -> 0 <= v) -> fetch_safe mach (st m0) f.
Proof. intros H Hp off m S Ho. specialize (H off m S Ho). destruct (f off m); cbn in *; auto. destruct H; auto. Qed.

Lemma safe_ok_inv {A} (P : A -> Prop) r v m' : safe m0 P r -> r = Ok v m' -> P v /\ st m0 m'.
Proof. intros H ->. destruct H; auto. Qed.

Lemma decode_safe m : st m0 m ->
  match decode m with
  | Ok i m' => st m0 m' /\ instr_ok i /\ 1 <= ilen i <= 26
  | Err _ m' => st m0 m'
  | _ => False
  end.
Proof.
  intros S. unfold decode.
  assert (F1 : fetch_safe mach (st m0) fetch1) by (apply (safe_fetch_safe _ _ safe_fetch1); intros; lia).
  assert (F2 : fetch_safe mach (st m0) fetch2) by (apply (safe_fetch_safe _ _ safe_fetch2); intros; lia).
  assert (F4 : fetch_safe mach (st m0) fetch4) by (apply (safe_fetch_safe _ _ safe_fetch4); unfold W32; intros; lia).
  assert (Rg : forall off s, st m0 s -> 0 <= off -> match fetch1 off s with Ok v _ => 0 <= v < 256 | _ => True end).
  { intros off s Ss Ho. pose proof (safe_fetch1 off s Ss Ho) as K. destruct (fetch1 off s); auto. apply K. }
  pose proof (decode_instruction_good mach fetch1 fetch2 fetch4 (st m0) F1 F2 F4 Rg m S) as G.
  destruct (decode_instruction mach fetch1 fetch2 fetch4 m) as [i m'|e m'| |] eqn:E; cbn in G; auto.
  destruct G as [Hl Sm]. split; [exact Sm|]. split; [|exact Hl].
  refine (decode_instruction_emb mach fetch1 fetch2 fetch4 (st m0) F1 F2 F4 _ _ _ m i m' S E);
    intros off s v s' Ss Ho Ef.
  - exact (proj2 (proj1 (safe_ok_inv _ _ _ _ (safe_fetch1 off s Ss Ho) Ef))).
  - exact (proj2 (proj1 (safe_ok_inv _ _ _ _ (safe_fetch2 off s Ss Ho) Ef))).
  - exact (proj2 (proj1 (safe_ok_inv _ _ _ _ (safe_fetch4 off s Ss Ho) Ef))).
Qed.

Lemma st_with_bus m b : st m0 m -> bwf b -> rom b = rom (mbus m) -> st m0 (with_bus m b).
Proof. intros [[Wb Wr] Hr] Hb He. split; [split|]; cbn; auto. congruence. Qed.

Lemma dispatch_safe now m : st m0 m -> safe m0 (fun _ => True) (dispatch now m).
Proof.
  intros S. unfold dispatch.
  destruct (bus_service_bwf now (mbus m) (proj1 (proj1 S))) as [W1 R1].
  pose proof (bus_get_interrupts_bwf now (bus_service now (mbus m)) W1) as [W2 R2].
  destruct (bus_get_interrupts now (bus_service now (mbus m))) as [o b] eqn:Eg. cbn [snd] in *.
  assert (S1 : st m0 (with_bus m b)) by (apply st_with_bus; auto; congruence).
  eapply safe_bind with (P := fun _ => True).
  - destruct o as [val|]; [|apply safe_ok; auto].
    destruct (_ <? _); [|apply safe_ok; auto].
    apply safe_on_interrupt; auto. apply Z.land_nonneg. right. lia.
  - intros _ m1 S2 _.
    pose proof (decode_safe m1 S2) as D. destruct (decode m1) as [i m2|e m2| |]; cbn [bind]; try contradiction.
    + destruct D as [S3 [Iok _]]. apply exec_safe; auto.
    + apply safe_err; auto.
Qed.

Lemma step_with_error_safe now m : st m0 m -> safe m0 (fun _ => True) (step_with_error now m).
Proof.
  intros S. unfold step_with_error. eapply safe_bind; [apply dispatch_safe; auto|].
  intros i m1 S1 _. apply safe_ok; auto. apply st_setR; auto. apply w32_W32.
Qed.
End Step.

(* a run of steps at the given times, continuing after errors as a host would *)
Inductive trace_end := TGood (m : mach) | TFuel | TPanic.
Fixpoint run_steps_err (nows : list Z) (m : mach) : trace_end :=
  match nows with
  | [] => TGood m
  | now :: t => match step_with_error now m with
                | Ok _ m' | Err _ m' => run_steps_err t m'
                | Panic => TPanic
                | OutOfFuel => TFuel
                end
  end.
