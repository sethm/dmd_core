(* C15  The frame the host fetches is the display window, and dirty means written. *)
From Coq Require Import ZArith List Bool Lia.
From Dmd Require Import Model.Bits Model.Mem Model.Bus Proofs.MemProofs Proofs.BusProofs Proofs.VideoProofs.
Open Scope Z_scope.

(* for every display-start value: the fetch returns exactly RAM[4*reg .. 4*reg+102400), clears the flag,
   changes nothing else, and cannot panic *)
Theorem C15_frame_is_window :
  forall b, bus_wf b -> vid_ok b ->
    bus_video_ram b = Ok (mem_slice (ram b) (video_start b) (Z.to_nat 102400)) (with_dirty b false).
Proof. exact frame_is_window. Qed.
Print Assumptions C15_frame_is_window.

Theorem C15_frame_bytes :
  forall m off n, length (mem_slice m off n) = n
    /\ forall i, (i < n)%nat -> nth_error (mem_slice m off n) i = Some (mget m (off + Z.of_nat i)).
Proof. intros m off n. exact (conj (mem_slice_length m off n) (mem_slice_nth m n off)). Qed.
Print Assumptions C15_frame_bytes.

Theorem C15_display_start_any_value :
  forall b, vid_ok b -> 0 <= video_start b <= 262140 /\ video_start b mod 4 = 0.
Proof. exact video_start_bound. Qed.
Print Assumptions C15_display_start_any_value.

(* aligned accesses never straddle a window edge *)
Theorem C15_aligned_access_inside_or_outside :
  forall b a, vid_ok b ->
    (a mod 2 = 0 -> in_window b (a + 1) = in_window b a)
    /\ (a mod 4 = 0 -> forall j, 0 <= j < 4 -> in_window b (a + j) = in_window b a).
Proof.
  intros b a Vk. split.
  - exact (window_half_aligned b a Vk).
  - intros Ha j. exact (window_word_aligned b a j Vk Ha).
Qed.
Print Assumptions C15_aligned_access_inside_or_outside.

(* over every history of guest writes (any width, any address, including display-start changes) and host fetches:
   dirty  <->  some successful write since the last fetch had a byte inside the window current at that write *)
Theorem C15_dirty_iff_written :
  forall ops b, vinv b -> dirty (fst (ghost_run ops b (dirty b))) = snd (ghost_run ops b (dirty b)).
Proof. exact dirty_iff_written. Qed.
Print Assumptions C15_dirty_iff_written.

(* one step: set exactly by a landing write, cleared only by the fetch *)
Theorem C15_dirty_step :
  forall o b, vinv b ->
    dirty (vstep o b) = match o with VFetch => false | _ => dirty b || lands b o end.
Proof. exact dirty_step. Qed.
Print Assumptions C15_dirty_step.

Theorem C15_invariant_reachable :
  forall now, vinv (bus_new now) /\ forall o b, vinv b -> vinv (vstep o b).
Proof. intros now. split; [split; [apply bus_new_wf | unfold vid_ok; cbn; lia] | exact vinv_step]. Qed.
Print Assumptions C15_invariant_reachable.
