(* C11  Memory is big-endian, width-coherent, alignment-checked; ROM is immutable. *)
From Coq Require Import ZArith List Lia.
From Dmd Require Import Model.Bits Model.Mem Model.Bus Proofs.MemProofs Proofs.BusProofs.
Open Scope Z_scope.

(* a halfword / word read is the big-endian composition of the byte reads of the same addresses *)
Theorem C11_half_is_big_endian_bytes :
  forall m a v, mem_read_half m a = ROk v ->
    mem_read_byte m a = ROk (byte_at m a) /\ mem_read_byte m (a + 1) = ROk (byte_at m (a + 1))
    /\ v = byte_at m a * 256 + byte_at m (a + 1).
Proof.
  intros m a v H. apply (mem_read_inv W2) in H as (L & U & ->). cbn [wlast] in U.
  repeat split; apply (mem_read_ok W1); cbn [wlast]; lia.
Qed.
Print Assumptions C11_half_is_big_endian_bytes.

Theorem C11_word_is_big_endian_bytes :
  forall m a v, mem_read_word m a = ROk v ->
    mem_read_byte m a = ROk (byte_at m a) /\ mem_read_byte m (a + 1) = ROk (byte_at m (a + 1))
    /\ mem_read_byte m (a + 2) = ROk (byte_at m (a + 2)) /\ mem_read_byte m (a + 3) = ROk (byte_at m (a + 3))
    /\ v = byte_at m a * 16777216 + byte_at m (a + 1) * 65536 + byte_at m (a + 2) * 256 + byte_at m (a + 3).
Proof.
  intros m a v H. apply (mem_read_inv W4) in H as (L & U & ->). cbn [wlast] in U.
  repeat split; apply (mem_read_ok W1); cbn [wlast]; lia.
Qed.
Print Assumptions C11_word_is_big_endian_bytes.

(* a write of any width changes exactly the addressed bytes (big-endian), nothing else, and keeps the geometry *)
Theorem C11_write_changes_exactly_addressed_bytes :
  (forall m a v m', mem_write_byte m a v = ROk m' ->
     mro m = false /\ mbase m <= a < mend m /\ mbase m' = mbase m /\ msize m' = msize m /\ mro m' = mro m
     /\ byte_at m' a = w8 v /\ (forall x, mbase m <= x -> x <> a -> byte_at m' x = byte_at m x))
  /\ (forall m a v m', mem_write_half m a v = ROk m' ->
     mro m = false /\ mbase m <= a /\ a + 1 < mend m /\ mbase m' = mbase m /\ msize m' = msize m /\ mro m' = mro m
     /\ byte_at m' a = w8 (v / 256) /\ byte_at m' (a + 1) = w8 v
     /\ (forall x, mbase m <= x -> x <> a -> x <> a + 1 -> byte_at m' x = byte_at m x))
  /\ (forall m a v m', mem_write_word m a v = ROk m' ->
     mro m = false /\ mbase m <= a /\ a + 3 < mend m /\ mbase m' = mbase m /\ msize m' = msize m /\ mro m' = mro m
     /\ byte_at m' a = w8 (v / 16777216) /\ byte_at m' (a + 1) = w8 (v / 65536)
     /\ byte_at m' (a + 2) = w8 (v / 256) /\ byte_at m' (a + 3) = w8 v
     /\ (forall x, mbase m <= x -> (x < a \/ a + 3 < x) -> byte_at m' x = byte_at m x)).
Proof.
  split; [|split]; intros m a v m' H;
    [apply (mem_write_inv W1) in H as (R & L & U & ->) | apply (mem_write_inv W2) in H as (R & L & U & ->)
     | apply (mem_write_inv W4) in H as (R & L & U & ->)];
    cbn [wlast] in U;
    match goal with |- context [mset_list m ?o ?l] => destruct (mset_list_geom l m o) as (B & S & O) end;
    repeat split; auto; try lia; intros; stored.
Qed.
Print Assumptions C11_write_changes_exactly_addressed_bytes.

(* and is read back unchanged at the same width *)
Theorem C11_write_read_back :
  (forall m a v m', mem_write_byte m a v = ROk m' -> mem_read_byte m' a = ROk (w8 v))
  /\ (forall m a v m', mem_write_half m a v = ROk m' -> mem_read_half m' a = ROk (w16 v))
  /\ (forall m a v m', mem_write_word m a v = ROk m' -> mem_read_word m' a = ROk (w32 v)).
Proof. exact (conj (write_read W1) (conj (write_read W2) (write_read W4))). Qed.
Print Assumptions C11_write_read_back.

(* unaligned halfword / word accesses fault and modify nothing *)
Theorem C11_unaligned_faults_unchanged :
  forall a v b,
    (Z.land a 1 <> 0 -> bus_read_half a b = Err (EBus BAlignment) b /\ bus_write_half a v b = Err (EBus BAlignment) b)
    /\ (Z.land a 3 <> 0 -> bus_read_word a b = Err (EBus BAlignment) b /\ bus_write_word a v b = Err (EBus BAlignment) b).
Proof.
  intros a v b; split; intros H; apply Z.eqb_neq in H.
  - exact (unaligned W2 a v b H).
  - exact (unaligned W4 a v b H).
Qed.
Print Assumptions C11_unaligned_faults_unchanged.

(* no guest write of any width, at any address, changes the ROM *)
Theorem C11_guest_writes_never_change_rom :
  forall a v b, bus_wf b ->
    res_rom_same b (bus_write_byte a v b) /\ res_rom_same b (bus_write_half a v b) /\ res_rom_same b (bus_write_word a v b).
Proof.
  intros a v b W.
  exact (conj (write_keeps_rom W1 a v b W) (conj (write_keeps_rom W2 a v b W) (write_keeps_rom W4 a v b W))).
Qed.
Print Assumptions C11_guest_writes_never_change_rom.

(* a write routed to the ROM is refused with a write fault *)
Theorem C11_rom_write_rejected :
  forall a v b, bus_wf b -> get_device a = Some DRom ->
    bus_write_byte a v b = Err (EBus BWrite) b
    /\ (bus_write_half a v b = Err (EBus BWrite) b \/ bus_write_half a v b = Err (EBus BAlignment) b)
    /\ (bus_write_word a v b = Err (EBus BWrite) b \/ bus_write_word a v b = Err (EBus BAlignment) b).
Proof.
  intros a v b W H.
  exact (conj (rom_write W1 a v b W H)
              (conj (if_either _ _ _ _ (rom_write W2 a v b W H)) (if_either _ _ _ _ (rom_write W4 a v b W H)))).
Qed.
Print Assumptions C11_rom_write_rejected.

(* the instruction stream is fetched from the bytes data accesses see (little-endian composed) *)
Theorem C11_fetch_sees_data_bytes :
  forall a b d, get_device a = Some d -> is_memdev d = true ->
    bus_read_byte a b = lift_r b (mem_read_byte (dev_mem b d) a)
    /\ (forall v b', bus_read_op_half a b = Ok v b' ->
          b' = b /\ exists x0 x1, mem_read_byte (dev_mem b d) a = ROk x0
                                  /\ mem_read_byte (dev_mem b d) (a + 1) = ROk x1 /\ v = x0 + x1 * 256)
    /\ (forall v b', bus_read_op_word a b = Ok v b' ->
          b' = b /\ exists x0 x1 x2 x3,
            mem_read_byte (dev_mem b d) a = ROk x0 /\ mem_read_byte (dev_mem b d) (a + 1) = ROk x1
            /\ mem_read_byte (dev_mem b d) (a + 2) = ROk x2 /\ mem_read_byte (dev_mem b d) (a + 3) = ROk x3
            /\ v = x0 + x1 * 256 + x2 * 65536 + x3 * 16777216).
Proof.
  intros a b d H M. split; [exact (data_read_mem W1 a b d H M eq_refl)|]. split.
  - intros v b'. unfold bus_read_op_half, with_dev. rewrite H. do 2 fetch_byte M. intros Q; inversion Q; subst. eauto 10.
  - intros v b'. unfold bus_read_op_word, with_dev. rewrite H. do 4 fetch_byte M. intros Q; inversion Q; subst. eauto 12.
Qed.
Print Assumptions C11_fetch_sees_data_bytes.
