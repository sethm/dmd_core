(* C05  Conditional branches and returns are taken exactly on their condition. *)
From Coq Require Import ZArith List Bool.
From Dmd Require Import Model.Bits Model.Types Model.Bus Model.Cpu Gen.GenOpcodes Gen.GenDispatch
     Spec.ArchCond Proofs.Arms.
Open Scope Z_scope.

(* the condition of every branch / return arm, as translated from the source on this run, is the architected
   predicate: all 42 opcodes (duplicate encodings included) x all 16 N,Z,V,C combinations; each opcode has an arm
   of the right kind (so every conditional return is implemented and uses the predicate of its branch) *)
Theorem C05_source_predicates_are_architected : branch_preds_ok = true.
Proof. vm_compute. reflexivity. Qed.
Print Assumptions C05_source_predicates_are_architected.

Lemma all_flags_complete n z v c : In (n, z, v, c) all_flags.
Proof.
  assert (B : forall b, In b [false; true]) by (intros []; cbn; auto).
  unfold all_flags. do 3 (apply in_flat_map; eexists; split; [apply B|]). apply in_map, B.
Qed.

Theorem C05_predicate_of_opcode :
  forall opc c k n z v cf, In (opc, c, k) arch_branch_table ->
    g_branch_pred opc n z v cf = Some (cond_holds c n z v cf)
    /\ exists o, find (fun p => fst p =? opc) g_branch_arms = Some (o, k).
Proof.
  intros opc c k n z v cf Hin. pose proof C05_source_predicates_are_architected as H. unfold branch_preds_ok in H.
  rewrite forallb_forall in H. specialize (H _ Hin). cbn beta iota in H.
  apply andb_true_iff in H as [H1 H2]. rewrite forallb_forall in H1.
  specialize (H1 _ (all_flags_complete n z v cf)). cbn beta iota in H1.
  split.
  - destruct (g_branch_pred opc n z v cf) as [b|]; [|discriminate]. cbn in H1. apply eqb_prop in H1. now subst.
  - destruct (find _ g_branch_arms) as [[o k']|]; [|discriminate].
    exists o. destruct k, k'; try discriminate; reflexivity.
Qed.
Print Assumptions C05_predicate_of_opcode.

(* the eight arms of `exec` ahead of the conditional ones claim no conditional opcode *)
Definition not_early (opc : Z) : bool :=
  negb ((opc =? op_NOP) || (opc =? op_NOP2) || (opc =? op_NOP3)
        || (opc =? op_ADDW2) || (opc =? op_ADDH2) || (opc =? op_ADDB2)
        || (opc =? op_ADDW3) || (opc =? op_ADDH3) || (opc =? op_ADDB3) || (opc =? op_ALSW3)
        || (opc =? op_ANDW2) || (opc =? op_ANDH2) || (opc =? op_ANDB2)
        || (opc =? op_ANDW3) || (opc =? op_ANDH3) || (opc =? op_ANDB3)).

Lemma table_not_early : forallb (fun e => not_early (fst (fst e))) arch_branch_table = true.
Proof. vm_compute. reflexivity. Qed.

(* what the model executes for such an opcode: the PC increment of a branch (sign-extended displacement when taken,
   the instruction length otherwise: PC' = (PC + increment) mod 2^32 by step), pop-and-return for a taken return,
   nothing at all for an untaken one *)
Theorem C05_conditional_transfer :
  forall ir m opc c k, In (opc, c, k) arch_branch_table -> iopcode ir = opc ->
    let taken := cond_holds c (flag F_N m) (flag F_Z m) (flag F_V m) (flag F_C m) in
    exec ir m =
    match k with
    | BrB => Ok (if taken then sext8 (oemb (op0 ir)) else ilen ir) m
    | BrH => Ok (if taken then sext16 (oemb (op0 ir)) else ilen ir) m
    | Ret => cond_return ir taken m
    end.
Proof.
  intros ir m opc c k Hin Ho taken.
  pose proof table_not_early as Hn. rewrite forallb_forall in Hn. specialize (Hn _ Hin). cbn [fst] in Hn.
  unfold not_early in Hn. apply negb_true_iff in Hn.
  destruct (C05_predicate_of_opcode opc c k (flag F_N m) (flag F_Z m) (flag F_V m) (flag F_C m) Hin) as (Hp & o & Hf).
  destruct ir as [opc' len o0 o1 o2 o3]. cbn [iopcode] in Ho. subst opc'.
  unfold exec. cbn [iopcode]. cbv zeta.
  (* the arms ahead of the conditional ones: their tests are the disjuncts of Hn *)
  as_ifs opc. rewrite ifs_all_false.
  2: { cbn [map fst]. repeat (apply orb_false_iff in Hn as [Hn ?]).
       repeat (constructor; [symmetry; now repeat (apply orb_false_iff; split)|]). constructor. }
  rewrite Hp, Hf. destruct k; reflexivity.
Qed.
Print Assumptions C05_conditional_transfer.

Theorem C05_return_taken_or_not :
  forall ir taken m,
    cond_return ir taken m =
    if taken then
      match rd_word (sub32 (R m R_SP) 4) m with
      | Ok v m' => Ok 0 (setR (setR m' R_SP (sub32 (R m' R_SP) 4)) R_PC v)
      | Err e m' => Err e m'
      | Panic => Panic
      | OutOfFuel => OutOfFuel
      end
    else Ok (ilen ir) m.
Proof.
  intros ir taken m. unfold cond_return, stack_pop. destruct taken; [|reflexivity].
  destruct (rd_word (sub32 (R m R_SP) 4) m); reflexivity.
Qed.
Print Assumptions C05_return_taken_or_not.

(* unconditional branch, jump, branch-to-subroutine and jump-to-subroutine always transfer *)
Theorem C05_unconditional_transfers :
  forall ir m,
    (iopcode ir = 123 -> exec ir m = Ok (sext8 (oemb (op0 ir))) m)
    /\ (iopcode ir = 122 -> exec ir m = Ok (sext16 (oemb (op0 ir))) m)
    /\ (iopcode ir = 120 -> exec ir m = cond_return ir true m)
    /\ (iopcode ir = 55 -> exec ir m = bind (stack_push (w32 (R m R_PC + ilen ir)) m)
                                            (fun _ m => Ok (sext8 (oemb (op0 ir))) m))
    /\ (iopcode ir = 54 -> exec ir m = bind (stack_push (w32 (R m R_PC + ilen ir)) m)
                                            (fun _ m => Ok (sext16 (oemb (op0 ir))) m))
    /\ (iopcode ir = 36 -> exec ir m = bind (effective_address ir 0 m) (fun a m => Ok 0 (setR m R_PC a)))
    /\ (iopcode ir = 52 -> exec ir m = bind (stack_push (w32 (R m R_PC + ilen ir)) m)
                                            (fun _ m => bind (effective_address ir 0 m)
                                                             (fun a m => Ok 0 (setR m R_PC a)))).
Proof.
  intros ir m. repeat split.
  - arm_eq ir. - arm_eq ir. - exact (exec_rsb ir m). - arm_eq ir.
  - arm_eq ir. - arm_eq ir. - arm_eq ir.
Qed.
Print Assumptions C05_unconditional_transfers.

(* the four condition codes the branch predicates read are the source's flag getters (bodies translated on every run) *)
From Dmd Require Import Model.Cpu Gen.GenFlags Proofs.FlagTie.
Theorem C05_flag_getters_are_source_functions :
  forall m, flag F_C m = g_c_flag m /\ flag F_V m = g_v_flag m /\ flag F_Z m = g_z_flag m /\ flag F_N m = g_n_flag m.
Proof. exact getters_are_source. Qed.
Print Assumptions C05_flag_getters_are_source_functions.
