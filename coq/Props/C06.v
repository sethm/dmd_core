(* C06  Stack and procedure-linkage instructions are exact inverses.
   The theorems are about `exec` of the model on arbitrary machine states (for the subroutine entries: about
   `stack_push`, the step C05_unconditional_transfers shows BSBB / BSBH / JSB to take); hypotheses say only that the words
   the instruction is defined to touch lie word-aligned in RAM (otherwise the instruction faults: C13), that the
   bus has its documented geometry, and -- where a stored register is read back -- that registers hold 32-bit
   values.  RAMB = 0x700000, RAME = 0x800000; ramb m a is the RAM byte at address a; ldw the big-endian word. *)
From Coq Require Import ZArith Lia List Bool.
From Dmd Require Import Model.Bits Model.Types Model.Mem Model.Bus Model.Decode Model.Cpu.
From Dmd Require Import Proofs.BitsLemmas Proofs.BusProofs Proofs.RegKit Proofs.MachKit Proofs.LinkageProofs.
Open Scope Z_scope.

(* PUSHW: the word goes to [SP], SP moves up by exactly 4, flags from the value *)
Theorem C06_pushw_effect :
  forall ir m v, iopcode ir = 160 -> bus_wf (mbus m) -> in_ram_w (R m R_SP) -> read_op ir 0 m = Ok v m ->
    exec ir m = Ok (ilen ir) (nz_clear_cv v (op0 ir) (setR (stw m (R m R_SP) v) R_SP (add32 (R m R_SP) 4))).
Proof. exact pushw_effect. Qed.
Print Assumptions C06_pushw_effect.

(* PUSHW v ; POPW %r  returns the pushed word, restores SP, changes no other register (but the flags) and no
   memory except the dead word at the old SP *)
Theorem C06_pushw_popw_inverse :
  forall ir1 ir2 m v r,
    iopcode ir1 = 160 -> iopcode ir2 = 32 -> bus_wf (mbus m) ->
    in_ram_w (R m R_SP) -> R m R_SP + 4 < 4294967296 -> read_op ir1 0 m = Ok v m ->
    omode (op0 ir2) = MRegister -> oreg (op0 ir2) = Some r -> 0 <= r <= 10 ->
    exists m1 m2,
      exec ir1 m = Ok (ilen ir1) m1 /\ exec ir2 m1 = Ok (ilen ir2) m2
      /\ R m2 r = w32 v /\ R m2 R_SP = R m R_SP
      /\ (forall i, 0 <= i <= 15 -> i <> r -> i <> 11 -> i <> 12 -> R m2 i = R m i)
      /\ (forall a, RAMB <= a -> (a < R m R_SP \/ R m R_SP + 4 <= a) -> ramb m2 a = ramb m a).
Proof.
  intros ir1 ir2 m v r Ho1 Ho2 W Hs Hlt Hr Hm Hreg Hr10.
  pose proof Hs as [Hs1 [Hs2 Hs3]].
  set (m1 := nz_clear_cv v (op0 ir1) (pushed m v)).
  assert (Sp1 : R m1 R_SP - 4 = R m R_SP).
  { unfold m1. rewrite R_nz_clear_cv by (unfold R_SP; lia). rewrite R_pushed_sp_ram by exact Hs. lia. }
  assert (L1 : ldw m1 (R m R_SP) = w32 v).
  { unfold m1. rewrite ldw_nz_clear_cv. apply ldw_pushed_top. lia. }
  exists m1. eexists. split; [now apply pushw_effect|]. split.
  - apply popw_effect_reg with (r := r); auto.
    + unfold m1. rewrite mbus_nz_clear_cv. now apply wf_pushed.
    + rewrite Sp1. exact Hs.
    + unfold RAMB in *. lia.
  - rewrite Sp1, L1. splits.
    + rewrite R_nz_clear_cv by lia. rewrite R_setR_other by (unfold R_SP; lia). apply R_setR_same.
    + rewrite R_nz_clear_cv by (unfold R_SP; lia). rewrite R_setR_same.
      rewrite R_setR_other by (unfold R_SP; lia). rewrite sub32_small by (unfold RAMB in *; lia). exact Sp1.
    + intros i Hi N1 N2 N3. rewrite R_nz_clear_cv by lia. rewrite !R_setR_other by (unfold R_SP; lia).
      unfold m1. rewrite R_nz_clear_cv by lia. now apply R_pushed_other.
    + intros a Ha Hd. rewrite ramb_nz_clear_cv. rewrite !ramb_setR. unfold m1.
      rewrite ramb_nz_clear_cv. apply ramb_pushed_other; lia.
Qed.
Print Assumptions C06_pushw_popw_inverse.

(* RSB executed on the state in which a return address has just been pushed (JSB / BSBB / BSBH all push it with
   stack_push: C05_unconditional_transfers; the state is `pushed m ret`, before their change of the PC, with no code in
   between): control goes to the pushed address, SP is back, no register and no other memory changed *)
Theorem C06_entry_rsb_inverse :
  forall ir2 m ret,
    iopcode ir2 = 120 -> bus_wf (mbus m) -> in_ram_w (R m R_SP) -> R m R_SP + 4 < 4294967296 ->
    let m1 := pushed m ret in
    exists m2, exec ir2 m1 = Ok 0 m2 /\ R m2 R_PC = w32 ret /\ R m2 R_SP = R m R_SP
      /\ (forall i, 0 <= i <= 14 -> i <> 12 -> R m2 i = R m i)
      /\ (forall a, RAMB <= a -> (a < R m R_SP \/ R m R_SP + 4 <= a) -> ramb m2 a = ramb m a).
Proof.
  intros ir2 m ret Ho W Hs Hlt m1. pose proof Hs as [Hs1 [Hs2 Hs3]].
  assert (Sp1 : sub32 (R m1 R_SP) 4 = R m R_SP).
  { unfold m1. rewrite R_pushed_sp_ram by exact Hs. rewrite sub32_small by (unfold RAMB in *; lia). lia. }
  eexists. split.
  - apply rsb_effect; [exact Ho | now apply wf_pushed | rewrite Sp1; exact Hs].
  - rewrite Sp1. splits.
    + rewrite R_setR_same. unfold m1. apply ldw_pushed_top. lia.
    + reflexivity.
    + intros i Hi N. rewrite !R_setR_other by (unfold R_PC, R_SP; lia). unfold m1. apply R_pushed_other; lia.
    + intros a Ha Hd. rewrite !ramb_setR. unfold m1. apply ramb_pushed_other; lia.
Qed.
Print Assumptions C06_entry_rsb_inverse.

Theorem C06_entry_pushes_return_address :
  forall ir m, bus_wf (mbus m) -> in_ram_w (R m R_SP) ->
    stack_push (w32 (R m R_PC + ilen ir)) m = Ok tt (pushed m (w32 (R m R_PC + ilen ir))).
Proof. intros. now apply stack_push_ram. Qed.
Print Assumptions C06_entry_pushes_return_address.

(* CALL: old AP at [SP+4], return address at [SP], SP + 8, AP := address of the first operand, PC := target *)
Theorem C06_call_effect :
  forall ir m a b,
    iopcode ir = 44 -> bus_wf (mbus m) -> in_ram_w (R m R_SP) -> in_ram_w (R m R_SP + 4) ->
    effective_address ir 0 m = Ok a m -> effective_address ir 1 m = Ok b m ->
    exec ir m = Ok 0 (called m a b (w32 (R m R_PC + ilen ir))).
Proof. exact call_effect. Qed.
Print Assumptions C06_call_effect.

(* RET executed on the state CALL leaves (`called m a b ret`, no code in between): control goes to `ret` (for CALL:
   the byte after it) with AP restored and SP = the CALL's first operand address; r0-r8 and FP untouched, no memory
   outside the two linkage words written *)
Theorem C06_call_ret_inverse :
  forall ir2 m a b ret,
    iopcode ir2 = 8 -> bus_wf (mbus m) -> in_ram_w (R m R_SP) -> in_ram_w (R m R_SP + 4) ->
    0 <= R m R_AP < 4294967296 ->
    let m1 := called m a b ret in
    exists m2, exec ir2 m1 = Ok 0 m2 /\ R m2 R_PC = w32 ret /\ R m2 R_AP = R m R_AP /\ R m2 R_SP = a
      /\ (forall i, 0 <= i <= 9 -> R m2 i = R m i)
      /\ (forall x, RAMB <= x -> (x < R m R_SP \/ R m R_SP + 8 <= x) -> ramb m2 x = ramb m x).
Proof.
  intros ir2 m a b ret Ho W Hs Hs4 Hap m1.
  destruct (called_spec m a b ret W Hs Hs4) as (W1 & S1 & A1 & L0 & L4 & K1 & B1). fold m1 in W1, S1, A1, L0, L4, K1, B1.
  eexists. split.
  - apply ret_effect; [exact Ho | exact W1 | rewrite S1 | rewrite S1].
    + replace (R m R_SP + 8 - 8) with (R m R_SP) by lia. exact Hs.
    + replace (R m R_SP + 8 - 4) with (R m R_SP + 4) by lia. exact Hs4.
  - rewrite S1, A1. replace (R m R_SP + 8 - 8) with (R m R_SP) by lia.
    replace (R m R_SP + 8 - 4) with (R m R_SP + 4) by lia. rewrite L0, L4.
    unfold R_AP, R_PC, R_SP in *. splits.
    + reflexivity.
    + rewrite !R_setR_other by lia. rewrite R_setR_same. now apply w32_id.
    + reflexivity.
    + intros i Hi. rewrite !R_setR_other by lia. apply K1; lia.
    + intros x Hx Hd. rewrite !ramb_setR. now apply B1.
Qed.
Print Assumptions C06_call_ret_inverse.

(* SAVE %r: FP then r..r8 stored upward from SP, SP + 28, FP := new SP (explicit final state) *)
Theorem C06_save_effect :
  forall ir m r,
    iopcode ir = 16 -> oreg (op0 ir) = Some r -> 3 <= r <= 9 ->
    bus_wf (mbus m) -> in_ram_w (R m R_SP) -> R m R_SP + 28 <= RAME ->
    exec ir m = Ok (ilen ir) (setR (setR (saved_mem m r) R_SP (R m R_SP + 28)) R_FP (R m R_SP + 28)).
Proof. exact save_effect. Qed.
Print Assumptions C06_save_effect.

(* SAVE %r directly followed by RESTORE %r, for every save range r3..r8 (and the empty one): every register
   including SP, FP, AP is back, and nothing outside the 28-byte save area was written *)
Theorem C06_save_restore_inverse :
  forall ir1 ir2 m r,
    iopcode ir1 = 16 -> iopcode ir2 = 24 -> oreg (op0 ir1) = Some r -> oreg (op0 ir2) = Some r -> 3 <= r <= 9 ->
    bus_wf (mbus m) -> in_ram_w (R m R_SP) -> R m R_SP + 28 <= RAME ->
    (forall i, 0 <= i <= 15 -> 0 <= R m i < 4294967296) ->
    exists m1 m2,
      exec ir1 m = Ok (ilen ir1) m1 /\ R m1 R_SP = R m R_SP + 28 /\ R m1 R_FP = R m R_SP + 28
      /\ (forall i, 0 <= i <= 15 -> i <> 9 -> i <> 12 -> R m1 i = R m i)
      /\ exec ir2 m1 = Ok (ilen ir2) m2
      /\ (forall i, 0 <= i <= 15 -> R m2 i = R m i)
      /\ (forall a, RAMB <= a -> (a < R m R_SP \/ R m R_SP + 28 <= a) -> ramb m2 a = ramb m a).
Proof.
  intros ir1 ir2 m r Ho1 Ho2 Hr1 Hr2 Hr W Hs Hend Hrng. pose proof Hs as [Hs1 [Hs2 Hs3]].
  set (m1 := setR (setR (saved_mem m r) R_SP (R m R_SP + 28)) R_FP (R m R_SP + 28)).
  destruct (saved_mem_spec m r Hr W Hs Hend) as (_ & W1 & Rg & C0 & Ck & Cf).
  assert (K1 : forall i, 0 <= i <= 15 -> i <> 9 -> i <> 12 -> R m1 i = R m i).
  { intros i Hi N9 N12. unfold m1. rewrite !R_setR_other by (unfold R_FP, R_SP; lia). now apply R_of_regs. }
  destruct (restore_effect ir2 m1 r Ho2 Hr2 Hr W1) as (m2 & E2 & B2 & Sp2 & Fp2 & Rk & Ro);
    change (R m1 R_FP) with (R m R_SP + 28) in *; [unfold RAMB in *; lia | lia | Z.div_mod_to_equations; lia |].
  replace (R m R_SP + 28 - 28) with (R m R_SP) in * by lia.
  exists m1, m2. split; [now apply save_effect|]. split; [reflexivity|]. split; [reflexivity|].
  split; [exact K1|]. split; [exact E2|]. split.
  - intros i Hi.
    destruct (Z.eq_dec i 12) as [->|N12]; [exact Sp2|].
    destruct (Z.eq_dec i 9) as [->|N9].
    { change 9 with R_FP. rewrite Fp2. change (ldw m1) with (ldw (saved_mem m r)). rewrite C0.
      apply w32_id, Hrng. unfold R_FP; lia. }
    destruct (Z_le_dec r i) as [Hri|Hri]; [destruct (Z_le_dec i 8) as [Hi8|Hi8]|].
    + rewrite Rk by lia. change (ldw m1) with (ldw (saved_mem m r)).
      replace (R m R_SP + 28 - 24 + 4 * (i - r)) with (R m R_SP + 4 + 4 * (i - r)) by lia.
      rewrite Ck by lia. apply w32_id, Hrng. lia.
    + rewrite Ro by lia. apply K1; lia.
    + rewrite Ro by lia. apply K1; lia.
  - intros a Ha Hd. unfold ramb. rewrite B2. now apply Cf.
Qed.
Print Assumptions C06_save_restore_inverse.

(* RESTORE from any frame in RAM *)
Theorem C06_restore_effect :
  forall ir m r,
    iopcode ir = 24 -> oreg (op0 ir) = Some r -> 3 <= r <= 9 -> bus_wf (mbus m) ->
    RAMB + 28 <= R m R_FP -> R m R_FP <= RAME -> R m R_FP mod 4 = 0 ->
    exists m2, exec ir m = Ok (ilen ir) m2 /\ mbus m2 = mbus m
      /\ R m2 R_SP = R m R_FP - 28 /\ R m2 R_FP = ldw m (R m R_FP - 28)
      /\ (forall k, r <= k <= 8 -> R m2 k = ldw m (R m R_FP - 24 + 4 * (k - r)))
      /\ (forall i, 0 <= i <= 15 -> i <> 9 -> i <> 12 -> (i < r \/ 8 < i) -> R m2 i = R m i).
Proof. exact restore_effect. Qed.
Print Assumptions C06_restore_effect.

(* non-vacuity: the power-on machine with SP set into RAM satisfies the hypotheses *)
Example C06_nonvacuous :
  let m := setR (mach_new 0) R_SP 7536640 in
  bus_wf (mbus m) /\ in_ram_w (R m R_SP) /\ in_ram_w (R m R_SP + 4) /\ R m R_SP + 28 <= RAME
  /\ (forall i, 0 <= i <= 15 -> 0 <= R m i < 4294967296).
Proof.
  cbv zeta. split; [apply bus_new_wf|]. rewrite RegKit.R_setR_same.
  split; [unfold in_ram_w, RAMB, RAME; cbn; repeat split; discriminate|].
  split; [unfold in_ram_w, RAMB, RAME; cbn; repeat split; discriminate|].
  split; [unfold RAME; cbn; discriminate|].
  intros i Hi.
  assert (Ei : i = 0 \/ i = 1 \/ i = 2 \/ i = 3 \/ i = 4 \/ i = 5 \/ i = 6 \/ i = 7 \/ i = 8 \/ i = 9 \/ i = 10
             \/ i = 11 \/ i = 12 \/ i = 13 \/ i = 14 \/ i = 15) by Lia.lia.
  repeat (destruct Ei as [Ei|Ei]); subst i; cbn; split; (discriminate || reflexivity).
Qed.

(* `nest` (Proofs/NestProofs.v) is the inductive family of balanced nestings: sequences and nestings, to any depth, of
   PUSHW..POPW, subroutine entry..RSB, [argument pushes] CALL..RET and SAVE %r [clobber r..r8] .. RESTORE %r, each
   instruction represented by its contract; C06_instruction_contracts proves the contracts of the dispatch arms. *)
From Dmd Require Import Proofs.NestProofs.

Theorem C06_balanced_nest_keeps_frame :
  forall m m', nest m m' ->
    bus_wf (mbus m') /\ R m' R_SP = R m R_SP
    /\ (forall i, 3 <= i <= 14 -> i <> 11 -> i <> 12 -> R m' i = R m i)          (* r3-r8, FP, AP, PCBP, ISP *)
    /\ (forall a, RAMB <= a -> a < R m R_SP -> ramb m' a = ramb m a).             (* the stack below SP *)
Proof.
  intros m m' N. destruct (nest_frame_kept m m' N) as [W S K B].
  split; [exact W|]. split; [exact S|]. split; [exact K | exact B].
Qed.
Print Assumptions C06_balanced_nest_keeps_frame.

Theorem C06_nested_push_pop_returns_the_word :
  forall m v m1 m2 dst m3,
    RAMB <= R m R_SP -> push_like m v m1 -> nest m1 m2 -> pop_like m2 dst m3 -> R m3 dst = w32 v.
Proof. exact push_nest_pop_value. Qed.
Print Assumptions C06_nested_push_pop_returns_the_word.

Theorem C06_nested_call_returns_after_the_call :
  forall m a ret m1 m2 m3,
    RAMB <= R m R_SP -> call_like m a ret m1 -> nest m1 m2 -> ret_like m2 m3 -> R m3 R_PC = w32 ret.
Proof.
  intros m a ret m1 m2 m3 Hsp [W1 [S1 [A1 [L0 [L4 [K1 B1]]]]]] N [Eb [S3 [A3 [P3 K3]]]].
  destruct (nest_frame_kept _ _ N) as [W2 S2 K2 B2].
  rewrite P3, S2, S1. replace (R m R_SP + 8 - 8) with (R m R_SP) by lia.
  rewrite (below_eq_ldw _ _ _ _ B2) by lia. exact L0.
Qed.
Print Assumptions C06_nested_call_returns_after_the_call.

(* the contracts are what the instructions do (stack in RAM); the one for the subroutine entries is stated of
   `stack_push` followed by any change of the PC, which is what BSBB / BSBH / JSB execute (C05_unconditional_transfers) *)
Theorem C06_instruction_contracts :
  (forall ir m v, iopcode ir = 160 -> bus_wf (mbus m) -> in_ram_w (R m R_SP) -> read_op ir 0 m = Ok v m ->
     exists m1, exec ir m = Ok (ilen ir) m1 /\ push_like m v m1)
  /\ (forall m ret pc', bus_wf (mbus m) -> in_ram_w (R m R_SP) ->
     stack_push ret m = Ok tt (pushed m ret) /\ push_like m ret (setR (pushed m ret) R_PC pc'))
  /\ (forall ir m r, iopcode ir = 32 -> bus_wf (mbus m) -> in_ram_w (R m R_SP - 4) -> 4 <= R m R_SP < 4294967296 ->
     omode (op0 ir) = MRegister -> oreg (op0 ir) = Some r -> 0 <= r <= 2 ->
     exists m3, exec ir m = Ok (ilen ir) m3 /\ pop_like m r m3)
  /\ (forall ir m, iopcode ir = 120 -> bus_wf (mbus m) -> in_ram_w (R m R_SP - 4) -> 4 <= R m R_SP < 4294967296 ->
     exists m3, exec ir m = Ok 0 m3 /\ pop_like m R_PC m3)
  /\ (forall ir m a b, iopcode ir = 44 -> bus_wf (mbus m) -> in_ram_w (R m R_SP) -> in_ram_w (R m R_SP + 4) ->
     0 <= R m R_AP < 4294967296 -> effective_address ir 0 m = Ok a m -> effective_address ir 1 m = Ok b m ->
     exists m1, exec ir m = Ok 0 m1 /\ call_like m a (R m R_PC + ilen ir) m1)
  /\ (forall ir m, iopcode ir = 8 -> bus_wf (mbus m) -> in_ram_w (R m R_SP - 8) -> in_ram_w (R m R_SP - 4) ->
     R m R_SP < 4294967296 -> exists m3, exec ir m = Ok 0 m3 /\ ret_like m m3)
  /\ (forall ir m r, iopcode ir = 16 -> oreg (op0 ir) = Some r -> 3 <= r <= 9 -> bus_wf (mbus m) ->
     in_ram_w (R m R_SP) -> R m R_SP + 28 <= RAME -> (forall i, 0 <= i <= 15 -> 0 <= R m i < 4294967296) ->
     exists m1, exec ir m = Ok (ilen ir) m1 /\ save_like m r m1)
  /\ (forall ir m r, iopcode ir = 24 -> oreg (op0 ir) = Some r -> 3 <= r <= 9 -> bus_wf (mbus m) ->
     RAMB + 28 <= R m R_FP -> R m R_FP <= RAME -> R m R_FP mod 4 = 0 ->
     exists m3, exec ir m = Ok (ilen ir) m3 /\ restore_like m r m3).
Proof.
  split.
  { (* PUSHW *)
    intros ir m v Ho W Hs Hr. exists (nz_clear_cv v (op0 ir) (pushed m v)). split; [apply pushw_effect; assumption|].
    eapply push_like_then_flags; [now apply pushed_push_like | apply mbus_nz_clear_cv |].
    intros i Hi N. apply R_nz_clear_cv; lia. }
  split.
  { (* BSBB / BSBH / JSB *)
    intros m ret pc' W Hs. split; [now apply stack_push_ram|].
    eapply push_like_then_flags; [now apply pushed_push_like | reflexivity |].
    intros i Hi N. apply R_setR_other; unfold R_PC; lia. }
  split.
  { (* POPW *)
    intros ir m r Ho W Hs Hsp Hm Hr Hr2. eexists. split; [apply (popw_effect_reg ir m r); assumption|].
    unfold pop_like. splits.
    - rewrite mbus_nz_clear_cv. reflexivity.
    - rewrite R_nz_clear_cv by (unfold R_SP; lia). rewrite R_setR_same. rewrite R_setR_other by (unfold R_SP; lia).
      apply sub32_small. lia.
    - intros i Hi N1 N2. rewrite R_nz_clear_cv by lia. rewrite !R_setR_other by (unfold R_SP; lia). reflexivity.
    - rewrite R_nz_clear_cv by lia. rewrite R_setR_other by (unfold R_SP; lia). apply R_setR_same. }
  split.
  { (* RSB *)
    intros ir m Ho W Hs Hsp.
    assert (E : sub32 (R m R_SP) 4 = R m R_SP - 4) by (apply sub32_small; lia).
    eexists. split; [apply rsb_effect; [exact Ho | exact W | rewrite E; exact Hs]|].
    rewrite E. unfold pop_like. splits; try reflexivity.
    intros i Hi N1 N2. rewrite !R_setR_other by (unfold R_PC, R_SP; lia). reflexivity. }
  split.
  { (* CALL *)
    intros ir m a b Ho W Hs Hs4 Hap Ha Hb. eexists. split; [apply (call_effect ir m a b); assumption|].
    destruct (called_spec m a b (w32 (R m R_PC + ilen ir)) W Hs Hs4) as (W1 & S1 & A1 & L0 & L4 & K1 & B1).
    unfold call_like. splits; auto.
    - rewrite L0. unfold w32. apply Z.mod_mod. lia.
    - rewrite L4. now apply w32_id.
    - intros i Hi N10 N11 N12. apply K1; lia.
    - intros x Hx Hl. apply B1; lia. }
  split.
  { (* RET *)
    intros ir m Ho W H8 H4 Hlt. eexists. split; [now apply ret_effect|].
    unfold ret_like. splits; try reflexivity.
    intros i Hi N10 N11 N12. rewrite !R_setR_other by (unfold R_AP, R_PC, R_SP; lia). reflexivity. }
  split.
  { (* SAVE *)
    intros ir m r Ho Hr1 Hr W Hs Hend Hrng. eexists. split; [apply (save_effect ir m r); assumption|].
    destruct (saved_mem_spec m r Hr W Hs Hend) as (_ & W1 & Rg & C0 & Ck & Cf).
    unfold save_like. splits; try reflexivity.
    - exact W1.
    - rewrite !ldw_setR, C0. apply w32_id, Hrng. unfold R_FP; lia.
    - intros k Hk. rewrite !ldw_setR, Ck by lia. apply w32_id, Hrng. lia.
    - intros i Hi N9 N11 N12. rewrite !R_setR_other by (unfold R_FP, R_SP; lia). now apply R_of_regs.
    - intros a Ha Hl. rewrite !ramb_setR. apply Cf; lia. }
  (* RESTORE *)
  intros ir m r Ho Hr1 Hr W H1 H2 H3.
  destruct (restore_effect ir m r Ho Hr1 Hr W H1 H2 H3) as [m3 [E [B [S [F [Rk Ro]]]]]].
  exists m3. split; [exact E|]. unfold restore_like. splits; auto.
  intros i Hi N9 N11 N12 Hd. apply Ro; lia.
Qed.
Print Assumptions C06_instruction_contracts.
