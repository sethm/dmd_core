(* C14  DUART status and interrupt requests always tell the truth. *)
From Coq Require Import ZArith List Bool.
From Dmd Require Import Model.Bits Model.Mem Model.Duart Proofs.BitKit Proofs.PortProofs Proofs.DuartProofs
     Proofs.DeviceRefine Gen.GenDuart Gen.GenPort Proofs.PortTie Gen.GenCmd Proofs.CmdTie.
Open Scope Z_scope.

(* the status invariant holds after every history of guest accesses to any register offset with any value,
   host enqueues and polls, mouse-button events, service and interrupt polls at any times *)
Theorem C14_invariant_all_histories : forall ops tm, DInv (drun ops (duart_new tm)).
Proof.
  intros ops tm.
  generalize (dinv_new tm). generalize (duart_new tm).
  induction ops as [|o t IH]; intros d I; [exact I | apply IH, dinv_step, I].
Qed.
Print Assumptions C14_invariant_all_histories.

(* RxRDY never without real data: the read returns the oldest byte actually received *)
Theorem C14_rxrdy_no_phantom :
  forall d, DInv d ->
    (bset (stat (pa d)) STS_RXR = true ->
       exists v d', duart_read_byte 15 d = ROk (v, d') /\ rx_held (pa d) = v :: rx_held (pa d')
                    /\ rx_enabled (pa d) = true)
    /\ (bset (stat (pb d)) STS_RXR = true ->
       exists v d', duart_read_byte 47 d = ROk (v, d') /\ rx_held (pb d) = v :: rx_held (pb d')
                    /\ rx_enabled (pb d) = true).
Proof. intros d I. split; [exact (rxrdy_no_phantom false d I) | exact (rxrdy_no_phantom true d I)]. Qed.
Print Assumptions C14_rxrdy_no_phantom.

(* every arriving character sets RxRDY; reading the last buffered byte clears it *)
Theorem C14_arrival_sets_and_last_read_clears :
  forall (p : port Z), PInv p ->
    (forall c, rx_enabled p = true -> bset (stat (rx_char p c)) STS_RXR = true)
    /\ (rx_held (snd (rx_read_char p)) = [] -> fst (rx_read_char p) <> None ->
        bset (stat (snd (rx_read_char p))) STS_RXR = false).
Proof.
  intros p I. split.
  - intros c _. apply rx_char_rxr.
  - intros H _. exact (pinv_held_rxr _ (proj1 (rx_read_char_spec p I)) H).
Qed.
Print Assumptions C14_arrival_sets_and_last_read_clears.

Theorem C14_txrdy_implies_thr_empty :
  forall d, DInv d ->
    (bset (stat (pa d)) STS_TXR = true -> tx_hold (pa d) = None)
    /\ (bset (stat (pb d)) STS_TXR = true -> tx_hold (pb d) = None).
Proof. exact txrdy_implies_thr_empty. Qed.
Print Assumptions C14_txrdy_implies_thr_empty.

Theorem C14_no_lost_wakeup :
  forall tm d,
    let v := fst (get_interrupt tm d) in
    let d' := snd (get_interrupt tm d) in
    (bset (stat (pa d)) STS_RXR = true ->
       exists val, v = Some val /\ bset val RX_INT = true /\ bset (isr d') ISTS_RAI = true)
    /\ (bset (stat (pb d)) STS_RXR = true ->
       exists val, v = Some val /\ bset val KEYBOARD_INT = true /\ bset (isr d') ISTS_RBI = true)
    /\ (bset (stat (pa d)) STS_TXR = true ->
       exists val, v = Some val /\ bset val TX_INT = true /\ bset (isr d') ISTS_TAI = true)
    /\ pa d' = pa d /\ pb d' = pb d.
Proof. exact no_lost_wakeup. Qed.
Print Assumptions C14_no_lost_wakeup.

Theorem C14_no_stuck_request_after_drain :
  forall d tm,
    (let d1 := dstep (DRead 15) d in
     bset (stat (pa d1)) STS_RXR = false ->
     bset (ivec d1) RX_INT = false /\ bset (isr d1) ISTS_RAI = false
     /\ bset (ivec (snd (get_interrupt tm d1))) RX_INT = false
     /\ bset (isr (snd (get_interrupt tm d1))) ISTS_RAI = false)
    /\ (let d1 := dstep (DRead 47) d in
     bset (stat (pb d1)) STS_RXR = false ->
     bset (ivec d1) KEYBOARD_INT = false /\ bset (isr d1) ISTS_RBI = false
     /\ bset (ivec (snd (get_interrupt tm d1))) KEYBOARD_INT = false
     /\ bset (isr (snd (get_interrupt tm d1))) ISTS_RBI = false).
Proof. intros d tm. split; [exact (no_stuck_after_drain false d tm) | exact (no_stuck_after_drain true d tm)]. Qed.
Print Assumptions C14_no_stuck_request_after_drain.

Theorem C14_no_stuck_request_after_disable :
  forall d cmd tm,
    (bset cmd CMD_DRX = true ->
     let d1 := dstep (DWrite 11 cmd) d in
     bset (stat (pa d1)) STS_RXR = false /\ bset (ivec d1) RX_INT = false /\ bset (isr d1) ISTS_RAI = false
     /\ bset (ivec (snd (get_interrupt tm d1))) RX_INT = false
     /\ bset (isr (snd (get_interrupt tm d1))) ISTS_RAI = false)
    /\ (bset cmd CMD_DTX = true ->
     let d1 := dstep (DWrite 11 cmd) d in
     bset (stat (pa d1)) STS_TXR = false /\ bset (ivec d1) TX_INT = false /\ bset (isr d1) ISTS_TAI = false
     /\ bset (ivec (snd (get_interrupt tm d1))) TX_INT = false
     /\ bset (isr (snd (get_interrupt tm d1))) ISTS_TAI = false).
Proof.
  intros d cmd tm. split; [exact (disable_rx_withdraws false d cmd tm) | exact (disable_tx_withdraws_a d cmd tm)].
Qed.
Print Assumptions C14_no_stuck_request_after_disable.

(* the interrupt-status bits a register access withdraws are the ones the source arm clears (`self.isr &= !X`, X
   translated from /repo/src/duart.rs on every run): a read of a receive register withdraws that receiver's bit, a
   read of the input-port-change register the input-port bit, a write of a transmit register that transmitter's
   bit; every other read arm leaves the interrupt status alone *)
Theorem C14_withdrawn_bits_are_source_bits :
  (forall off ports clr d v d',
     In (off, ports, clr) gd_read_arms -> duart_read_byte off d = ROk (v, d') ->
     isr d' = if clr =? 0 then isr d else clr8 (isr d) clr)
  /\ (forall off ports clr v d,
        In (off, ports, clr) gd_write_arms -> clr <> 0 -> isr (duart_write_byte off v d) = clr8 (isr d) clr).
Proof.
  split.
  - intros off ports clr d v d'. unfold gd_read_arms. cbn [In]. intros H.
  repeat (destruct H as [H|H];
          [inversion H; subst; clear H; unfold duart_read_byte; cbv zeta;
           match goal with |- context [w8 ?n] => let r := eval vm_compute in (w8 n) in change (w8 n) with r end;
           closed_eqb; cbv iota;
           repeat match goal with |- context [let (_, _) := ?e in _] => destruct e end;
           intros E; inversion E; subst; reflexivity|]).
  destruct H.
  - intros off ports clr v d. unfold gd_write_arms. cbn [In]. intros H N.
  repeat (destruct H as [H|H];
          [inversion H; subst; clear H; try (exfalso; apply N; reflexivity);
           unfold duart_write_byte; cbv zeta;
           match goal with |- context [w8 ?n] => closed_z n; let r := eval vm_compute in (w8 n) in change (w8 n) with r end;
           closed_eqb; cbv iota; reflexivity|]).
  destruct H.
Qed.
Print Assumptions C14_withdrawn_bits_are_source_bits.

(* every status / configuration / command / interrupt-status / interrupt-vector bit and every command code the model and
   these theorems use is the constant of that name in /repo/src/duart.rs (translated on every run) *)
Theorem C14_constants_are_source_constants :
  (CNF_ETX, CNF_ERX) = (gd_CNF_ETX, gd_CNF_ERX)
  /\ (STS_RXR, STS_FFL, STS_TXR, STS_TXE, STS_OER, STS_PER, STS_FER, STS_RXB)
     = (gd_STS_RXR, gd_STS_FFL, gd_STS_TXR, gd_STS_TXE, gd_STS_OER, gd_STS_PER, gd_STS_FER, gd_STS_RXB)
  /\ (CMD_ERX, CMD_DRX, CMD_ETX, CMD_DTX) = (gd_CMD_ERX, gd_CMD_DRX, gd_CMD_ETX, gd_CMD_DTX)
  /\ (ISTS_TAI, ISTS_RAI, ISTS_DBA, ISTS_TBI, ISTS_RBI, ISTS_DBB, ISTS_IPC)
     = (gd_ISTS_TAI, gd_ISTS_RAI, gd_ISTS_DBA, gd_ISTS_TBI, gd_ISTS_RBI, gd_ISTS_DBB, gd_ISTS_IPC)
  /\ (KEYBOARD_INT, MOUSE_BLANK_INT, TX_INT, RX_INT) = (gd_KEYBOARD_INT, gd_MOUSE_BLANK_INT, gd_TX_INT, gd_RX_INT)
  /\ (forall c, is_reset_rx c = (Z.land (Z.shiftr c 4) 7 =? gd_CR_RST_RX))
  /\ (forall c, is_reset_tx c = (Z.land (Z.shiftr c 4) 7 =? gd_CR_RST_TX))
  /\ (forall c, is_reset_err c = (Z.land (Z.shiftr c 4) 7 =? gd_CR_RST_ERR))
  /\ (gd_CR_RST_MR, gd_CR_RST_BRK, gd_CR_START_BRK, gd_CR_STOP_BRK) = (1, 5, 6, 7).
Proof.
  repeat split; reflexivity.
Qed.
Print Assumptions C14_constants_are_source_constants.

(* the port helper functions the status theorems rest on are the source's: Gen/GenPort.v is their statement-by-statement
   translation from /repo/src/duart.rs, regenerated on every run *)
Theorem C14_port_helpers_are_source_functions :
  forall (A : Type) (p : port A),
    enable_tx p = g_enable_tx p /\ disable_tx p = g_disable_tx p
    /\ enable_rx p = g_enable_rx p /\ disable_rx p = g_disable_rx p
    /\ loopback p = g_loopback p /\ rx_enabled p = g_rx_enabled p.
Proof.
  intros A p. repeat apply conj; [apply enable_tx_is_source | apply disable_tx_is_source | apply enable_rx_is_source
                            | apply disable_rx_is_source | apply loopback_is_source | apply rx_enabled_is_source].
Qed.
Print Assumptions C14_port_helpers_are_source_functions.

(* the model's handle_command equals Duart::handle_command as translated from /repo/src/duart.rs (Gen/GenCmd.v; see
   C08_command_interpreter_is_source_function) for every command byte, channel and state *)
Theorem C14_command_interpreter_is_source_function :
  forall cmd pn d, handle_command cmd pn d = g_handle_command cmd pn d.
Proof. exact handle_command_is_source. Qed.
Print Assumptions C14_command_interpreter_is_source_function.
