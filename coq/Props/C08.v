(* C08  Bytes sent to the terminal arrive once, in order, or the loss is flagged.
   The port model is polymorphic in the payload: the theorems hold for bytes carrying any ghost tag. *)
From Coq Require Import ZArith Lia List Bool.
From Dmd Require Import Model.Bits Model.Fifo Model.Mem Model.Duart Proofs.BitKit Proofs.FifoProofs Proofs.PortProofs Proofs.DuartProofs Proofs.DeviceRefine Model.Bus Proofs.BusDuart Gen.GenDuart Proofs.RegMapTie Gen.GenPort Proofs.PortTie Gen.GenCmd Proofs.CmdTie.
Import ListNotations.
Open Scope Z_scope.

(* the circular buffer is a FIFO of at most three elements *)
Theorem C08_fifo_refines_queue :
  forall (A : Type) (q : fifo A) (c : A), fifo_wf q ->
    (flen q < 3 -> exists q', fifo_push q c = Some q' /\ fifo_wf q' /\ flen q' = flen q + 1
                              /\ fifo_contents q' = fifo_contents q ++ [c])
    /\ (flen q = 3 -> fifo_push q c = None)
    /\ (0 < flen q -> exists v q', fifo_pop q = Some (v, q') /\ fifo_wf q' /\ flen q' = flen q - 1
                                   /\ fifo_contents q = v :: fifo_contents q')
    /\ (flen q = 0 -> fifo_pop q = None).
Proof.
  intros A q c W. repeat split.
  - exact (fifo_push_spec q c W). - exact (fifo_push_full q c).
  - exact (fifo_pop_spec q W). - exact (fifo_pop_empty q).
Qed.
Print Assumptions C08_fifo_refines_queue.

(* over every history of host enqueues, time steps, guest reads, commands, mode/CSR/THR writes and host polls
   (receiver not in loop-back): the bytes read while RxRDY was set, followed by what is still in the pipeline,
   form an in-order subsequence of what the host queued: nothing invented, nothing twice, nothing reordered *)
Theorem C08_rx_in_order_at_most_once :
  forall (A : Type) (dflt : A) (is02 : A -> bool) (ops : list (@pop A)) (p : port A) (E D : list A),
    PInv p -> loopback p = false -> forallb no_lb_op ops = true -> subseq (D ++ rx_pipe p) E ->
    let '(p', E', D') := rx_run is02 ops p E D in subseq (D' ++ rx_pipe p') E'.
Proof.
  intros A dflt is02 ops. induction ops as [|o t IH]; intros p E D I Lb Ok H; cbn [rx_run]; [exact H|].
  cbn in Ok. apply andb_true_iff in Ok as [Ok1 Ok2].
  apply IH; auto using pinv_step, loopback_step, rx_step_subseq.
Qed.
Print Assumptions C08_rx_in_order_at_most_once.

Theorem C08_delivered_is_subsequence_of_queued :
  forall (A : Type) (dflt : A) (is02 : A -> bool) (ops : list (@pop A)) (tm : Z),
    forallb no_lb_op ops = true ->
    let '(_, E', D') := rx_run is02 ops (port_new dflt tm) [] [] in subseq D' E'.
Proof.
  intros A dflt is02 ops tm Ok.
  pose proof (C08_rx_in_order_at_most_once A dflt is02 ops (port_new dflt tm) [] [] (pinv_new dflt tm) eq_refl Ok) as H.
  destruct (rx_run is02 ops (port_new dflt tm) [] []) as [[p' E'] D'].
  apply (subseq_app_l D' (rx_pipe p')). apply H. cbn. constructor.
Qed.
Print Assumptions C08_delivered_is_subsequence_of_queued.

(* a byte leaves the pipeline undelivered only in a step that is a flagged overrun, a receiver reset,
   or a read made while the receiver did not report ready; every other step conserves the pipeline exactly *)
Theorem C08_loss_only_flagged :
  forall (A : Type) (dflt : A) (is02 : A -> bool) (o : @pop A) (p : port A),
    PInv p -> loopback p = false -> no_lb_op o = true ->
    let dD := match o with
              | PRead => if bset (stat p) STS_RXR then olist (fst (rx_read_char p)) else []
              | _ => [] end in
    let dE := match o with PEnq a => [a] | _ => [] end in
    dD ++ rx_pipe (pstep is02 o p) = rx_pipe p ++ dE
    \/ (exists tm k, o = PSvc tm k /\ bset (stat (pstep is02 o p)) STS_OER = true)
    \/ (exists c, o = PCmd c /\ is_reset_rx c = true)
    \/ (o = PRead /\ bset (stat p) STS_RXR = false).
Proof. exact (@rx_loss_only_flagged). Qed.
Print Assumptions C08_loss_only_flagged.

(* the overrun flag stays set until the guest issues reset-error *)
Theorem C08_overrun_flag_sticky :
  forall (A : Type) (dflt : A) (is02 : A -> bool) (o : @pop A) (p : port A),
    PInv p -> bset (stat p) STS_OER = true ->
    (forall c, o = PCmd c -> is_reset_err c = false) ->
    bset (stat (pstep is02 o p)) STS_OER = true.
Proof.
  intros A dflt is02 o p I H Hc. now apply (pstep_keeps is02 o p I).
Qed.
Print Assumptions C08_overrun_flag_sticky.

(* the invariant the above rest on holds in every reachable state *)
Theorem C08_invariant_reachable :
  forall (A : Type) (dflt : A) (is02 : A -> bool),
    (forall tm, PInv (port_new dflt tm)) /\ (forall (o : @pop A) p, PInv p -> PInv (pstep is02 o p)).
Proof. intros A dflt is02. split; [exact (pinv_new dflt) | exact (pinv_step is02)]. Qed.
Print Assumptions C08_invariant_reachable.

(* the register map as a function: every device operation (a read or write at any offset with any value, a
   service call at any time, an interrupt poll, a host enqueue or poll on either channel, a mouse event) does to a
   channel's port exactly the one port operation `chan_op` names, or nothing *)
Theorem C08_register_map_refines_ports :
  forall (b : bool) (o : dop) (d : duart),
    port_of b (dstep o d)
    = match chan_op b o d with Some po => @pstep Z is02z po (port_of b d) | None => port_of b d end.
Proof. exact dstep_chan. Qed.
Print Assumptions C08_register_map_refines_ports.

(* over every history of device operations, on either channel (b): the bytes the guest read at the channel's
   receive register while its status register showed RxRDY, followed by what is still in that channel's pipeline,
   form an in-order subsequence of the bytes the host queued for that channel -- whatever happens meanwhile on the
   other channel, the mouse inputs and the interrupt logic *)
Theorem C08_device_rx_in_order_at_most_once :
  forall (b : bool) (ops : list dop) (d : duart) (E D : list Z),
    DInv d -> loopback (port_of b d) = false -> forallb (dev_no_lb b) ops = true ->
    subseq (D ++ rx_pipe (port_of b d)) E ->
    let '(d', E', D') := drx_run b ops d E D in subseq (D' ++ rx_pipe (port_of b d')) E'.
Proof.
  intros b ops. induction ops as [|o t IH]; intros d E D I Lb Ok H; cbn [drx_run]; [exact H|].
  cbn [forallb] in Ok. apply andb_true_iff in Ok as [Ok1 Ok2].
  destruct (drx_ghost b o d E D I) as (-> & -> & N). rewrite N in Ok1. pose proof (dstep_chan b o d) as S.
  revert S Ok1. destruct (chan_op b o d) as [po|]; intros S Ok1;
    (apply IH; [apply dinv_step, I | rewrite S | exact Ok2 | rewrite S]); auto.
  - apply (loopback_step is02z); auto using dinv_port.
  - apply (rx_step_subseq is02z); auto using dinv_port.
Qed.
Print Assumptions C08_device_rx_in_order_at_most_once.

Theorem C08_device_delivered_is_subsequence_of_queued :
  forall (b : bool) (ops : list dop) (tm : Z),
    forallb (dev_no_lb b) ops = true ->
    let '(_, E', D') := drx_run b ops (duart_new tm) [] [] in subseq D' E'.
Proof.
  intros b ops tm Ok.
  pose proof (C08_device_rx_in_order_at_most_once b ops (duart_new tm) [] [] (dinv_new tm)) as H.
  destruct (drx_run b ops (duart_new tm) [] []) as [[d' E'] D'].
  apply (subseq_app_l D' (rx_pipe (port_of b d'))). apply H.
  - destruct b; reflexivity.
  - exact Ok.
  - destruct b; cbn; constructor.
Qed.
Print Assumptions C08_device_delivered_is_subsequence_of_queued.

(* every guest data access -- byte, halfword or word, read or write, at any address with any value -- acts on the
   DUART as the device operations the address decode names (one register read or write when it is aligned and lands
   in 0x200000..0x20003f; a halfword at a is the register at a+2, a word the register at a+3) and otherwise leaves the
   DUART exactly as it was *)
Theorem C08_bus_access_is_device_operation :
  forall (x : bacc) (b : bus), duart_ (bus_do x b) = drun (bacc_dops x) (duart_ b).
Proof. exact bus_do_duart. Qed.
Print Assumptions C08_bus_access_is_device_operation.

(* from power-on, over every interleaving of guest bus accesses with host enqueues and polls, service calls,
   interrupt polls and mouse events: what the guest read at a channel's receive register while its status showed
   RxRDY is an in-order subsequence of what the host queued for that channel *)
Theorem C08_guest_rx_delivered_is_subsequence_of_queued :
  forall (chan : bool) (ops : list sysop) (now : Z),
    forallb (dev_no_lb chan) (flat_map sys_dops ops) = true ->
    let '(d', E', D') := drx_run chan (flat_map sys_dops ops) (duart_ (bus_new now)) [] [] in
    subseq D' E' /\ d' = duart_ (fold_left (fun s o => sys_step o s) ops (bus_new now)).
Proof.
  intros chan ops now Ok. pose proof (C08_device_delivered_is_subsequence_of_queued chan (flat_map sys_dops ops) now Ok) as H.
  change (duart_ (bus_new now)) with (duart_new now).
  assert (Hd : forall l d E D, fst (fst (drx_run chan l d E D)) = drun l d).
  { induction l as [|o t IH]; intros d E D; cbn [drx_run drun]; [reflexivity | apply IH]. }
  specialize (Hd (flat_map sys_dops ops) (duart_new now) [] []).
  destruct (drx_run chan (flat_map sys_dops ops) (duart_new now) [] []) as [[d' E'] D'].
  split; [exact H|]. cbn in Hd. rewrite Hd, sys_run_duart. reflexivity.
Qed.
Print Assumptions C08_guest_rx_delivered_is_subsequence_of_queued.

(* the register map is the source's (Gen/GenDuart.v is regenerated from /repo/src/duart.rs on every run) *)
Theorem C08_register_map_is_source_register_map :
  (forall off d, duart_read_byte off d = RErr BNoDevice <-> ~ In (w8 off) (arm_offsets gd_read_arms))
  /\ (forall off ports clr b d,
        In (off, ports, clr) gd_read_arms -> chan_op b (DRead off) d <> None -> In (chan_no b) ports)
  /\ (chan_base false + 3 = gd_MR12A /\ chan_base false + 7 = gd_CSRA /\ chan_base false + 11 = gd_CRA
      /\ chan_base false + 15 = gd_RHRA /\ chan_base false + 15 = gd_THRA
      /\ chan_base true + 3 = gd_MR12B /\ chan_base true + 7 = gd_CSRB /\ chan_base true + 11 = gd_CRB
      /\ chan_base true + 15 = gd_RHRB /\ chan_base true + 15 = gd_THRB
      /\ gd_PORT_0 = chan_no false /\ gd_PORT_1 = chan_no true)
  /\ DUART_BASE = gd_START_ADDR.
Proof.
  split; [|split; [|split; [|reflexivity]]].
  - intros off d. eval_arms. unfold duart_read_byte. cbv zeta. remember (w8 off) as x eqn:Ex. clear Ex.
  off_cases x;
    repeat match goal with |- context [let (_, _) := ?e in _] => destruct e end;
    (split; [intros H; try discriminate H | intros H]); cbn [In] in *; try (exfalso; apply H; tauto); try reflexivity.
  intros [|[|[|[|[|[|[|[|[|[]]]]]]]]]]; lia.
  - intros off ports clr b d. unfold gd_read_arms. cbn [In]. intros H.
  repeat (destruct H as [H|H]; [inversion H; subst; clear H; destruct b; vm_compute; tauto|]). destruct H.
  - vm_compute. repeat split.
Qed.
Print Assumptions C08_register_map_is_source_register_map.

(* enable / disable receiver and the receiver-enabled test are the source's functions (translated on every run) *)
Theorem C08_receiver_helpers_are_source_functions :
  forall (A : Type) (p : port A),
    enable_rx p = g_enable_rx p /\ disable_rx p = g_disable_rx p /\ rx_enabled p = g_rx_enabled p.
Proof. intros A p. repeat apply conj; [apply enable_rx_is_source | apply disable_rx_is_source | apply rx_enabled_is_source]. Qed.
Print Assumptions C08_receiver_helpers_are_source_functions.

(* the command interpreter is the source's: Gen/GenCmd.v is Duart::handle_command translated statement by statement from
   /repo/src/duart.rs on every run (per-port interrupt-status table, enable / disable arms, the command match with its
   resets and break commands), and the model's handle_command equals it for every command byte, channel and state *)
Theorem C08_command_interpreter_is_source_function :
  forall cmd pn d, handle_command cmd pn d = g_handle_command cmd pn d.
Proof. exact handle_command_is_source. Qed.
Print Assumptions C08_command_interpreter_is_source_function.
