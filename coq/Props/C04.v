(* C04  Instruction decoding consumes exactly the architected bytes.
   The decoder model (Model/Decode.v) is generic in its byte source; here it runs on a plain byte string.
   First the tables, totality and the rejected encodings; then the decoder against the architected
   encoding: decoding (enc_instr i ++ rest) gives i (opcode, length, and every operand field but the recorded operand
   size) for every well-formed instruction i of the opcode table, and
   decoding on the machine = decoding the bytes at the program counter; last, the model's dispatch against the
   arms of the source's. *)
From Coq Require Import ZArith Lia List Bool ZifyBool.
From Dmd Require Import Model.Bits Model.Types Model.Decode Spec.ArchOpcodes Proofs.DecodeProofs.
Open Scope Z_scope.

(* the opcode tables in the source (translated on every run) are the architected opcode map: for every first
   byte other than the 0x30 escape, and for every second byte after 0x30, the same opcodes are defined, with the
   same operand size and the same operand kinds in the same order *)
Theorem C04_opcode_tables_are_architected :
  (forall b1, 0 <= b1 < 256 -> b1 <> 48 ->
     option_map row_view (lookup_mnemonic b1 None)
     = option_map (fun p => (b1, fst p, snd p)) (arch_lookup arch_opcodes b1))
  /\ (forall b2, 0 <= b2 < 256 ->
     option_map row_view (lookup_mnemonic 48 (Some b2))
     = option_map (fun p => (12288 + b2, fst p, snd p)) (arch_lookup arch_opcodes (12288 + b2))).
Proof.
  split.
  - intros b1 H N. pose proof (forall_bytes _ byte_rows_ok b1 H) as K. cbn beta in K.
    replace (b1 =? 48) with false in K by lia. cbn [orb] in K.
    unfold byte_row_ok in K. now destruct (view_eq_dec _ _).
  - intros b2 H. pose proof (forall_bytes _ half_rows_ok b2 H) as K.
    unfold half_row_ok in K. now destruct (view_eq_dec _ _).
Qed.
Print Assumptions C04_opcode_tables_are_architected.

(* every byte string: the decoder returns an instruction of 1..26 bytes or an error; it never overruns its
   32-byte buffer (Panic) and never exhausts its recursion bound (OutOfFuel) *)
Theorem C04_decode_total_and_bounded :
  forall bs, bytes_ok bs ->
    match decode_bytes bs with
    | Ok i _ => 1 <= ilen i <= 26
    | Err _ _ => True
    | _ => False
    end.
Proof. exact decode_bytes_total. Qed.
Print Assumptions C04_decode_total_and_bounded.

(* the same for ANY byte source whose fetches do not themselves crash (the bus, in any state): *)
Theorem C04_decode_safe_any_source :
  forall St f1 f2 f4 (I : St -> Prop),
    fetch_safe St I f1 -> fetch_safe St I f2 -> fetch_safe St I f4 ->
    (forall off s, I s -> 0 <= off -> match f1 off s with Ok v _ => 0 <= v < 256 | _ => True end) ->
    forall s, I s -> dec_good St I (decode_instruction St f1 f2 f4 s).
Proof. exact decode_instruction_good. Qed.
Print Assumptions C04_decode_safe_any_source.

(* reserved descriptor bytes are rejected as illegal, in every operand position and after a prefix:
   register 11 (PSW) in register-deferred and displacement modes, reserved expanded-type codes *)
Theorem C04_reserved_descriptor_rejected :
  forall bs dt et recur len d,
    byte_at bs len = Some d -> 0 <= len < 32 -> 0 <= d < 256 -> reserved_desc d = true ->
    forall fuel, (1 <= fuel)%nat ->
    decode_descriptor unit (bfetch1 bs) (bfetch2 bs) (bfetch4 bs) fuel dt et recur len tt
    = Err (EExc IllegalOpcode) tt.
Proof.
  intros bs dt et recur len d E Hl Hd R fuel Hf. destruct fuel as [|fuel]; [lia|]. cbn [decode_descriptor].
  unfold acc_byte at 1, bfetch1 at 1. rewrite E. cbn [bind]. replace (len >=? 32) with false by lia.
  cbn [bind fst snd]. cbv zeta. unfold illegal. unfold reserved_desc in R. cbv zeta in R.
  assert (Hm : 0 <= d / 16 <= 15) by (Z.div_mod_to_equations; lia).
  set (m := d / 16) in *. set (r := d mod 16) in *. clearbody m r. unfold etype_of.
  assert (Em : m = 0 \/ m = 1 \/ m = 2 \/ m = 3 \/ m = 4 \/ m = 5 \/ m = 6 \/ m = 7 \/ m = 8 \/ m = 9 \/ m = 10
               \/ m = 11 \/ m = 12 \/ m = 13 \/ m = 14 \/ m = 15) by lia.
  (* the mode nibble picks the arm; what R says of the register nibble then settles every test on it *)
  repeat (destruct Em as [Em|Em]); subst m; cbn in R; try discriminate; cbn [Z.leb Z.eqb Z.compare Pos.compare Pos.eqb];
    repeat match goal with |- context [r =? ?k] =>
      first [replace (r =? k) with true by lia | replace (r =? k) with false by lia] end;
    destruct recur; reflexivity.
Qed.
Print Assumptions C04_reserved_descriptor_rejected.

(* an expanded-type prefix followed by another prefix is rejected (no unbounded chains) *)
Theorem C04_nested_prefix_rejected :
  forall bs dt et len d d2 fuel,
    byte_at bs len = Some d -> byte_at bs (len + 1) = Some d2 -> 0 <= len < 31 ->
    0 <= d < 256 -> 0 <= d2 < 256 -> d / 16 = 14 -> d mod 16 <> 15 -> d2 / 16 = 14 -> d2 mod 16 <> 15 ->
    (2 <= fuel)%nat ->
    decode_descriptor unit (bfetch1 bs) (bfetch2 bs) (bfetch4 bs) fuel dt et false len tt
    = Err (EExc IllegalOpcode) tt.
Proof.
  intros bs dt et len d d2 fuel E E2 Hl Hd Hd2 M1 R1 M2 R2 Hf.
  destruct fuel as [|[|fuel]]; try lia. cbn [decode_descriptor].
  unfold acc_byte at 1, bfetch1 at 1. rewrite E. cbn [bind]. replace (len >=? 32) with false by lia.
  cbn [bind fst snd]. cbv zeta. rewrite M1. cbn [Z.leb Z.eqb Z.compare Pos.compare Pos.compare_cont Pos.eqb andb negb].
  replace (d mod 16 =? 15) with false by lia. cbn [negb andb].
  destruct (etype_of (d mod 16)); [|reflexivity].
  unfold acc_byte at 1, bfetch1 at 1. rewrite E2. cbn [bind]. replace (len + 1 >=? 32) with false by lia.
  cbn [bind fst snd]. rewrite M2. cbn [Z.leb Z.eqb Z.compare Pos.compare Pos.compare_cont Pos.eqb andb negb].
  replace (d2 mod 16 =? 15) with false by lia. reflexivity.
Qed.
Print Assumptions C04_nested_prefix_rejected.

(* non-vacuity: a concrete encoding (MOVW &0x12345678, 4(%r2)) decodes to 8 bytes *)
Example C04_example :
  match decode_bytes [132; 79; 120; 86; 52; 18; 194; 4; 112] with
  | Ok i _ => (iopcode i, ilen i, omode (op0 i), oemb (op0 i), omode (op1 i), oreg (op1 i), oemb (op1 i))
              = (132, 8, MWordImm, 305419896, MByteDisp, Some 2, 4)
  | _ => False end.
Proof. vm_compute. reflexivity. Qed.

(* The decoder against the architected encoding (Proofs/EncodeProofs.v):
   amode / enc_mode / enc_opnd / enc_instr are the WE32100 operand syntax and its byte encoding, written down
   independently of the decoder.  On any byte string that holds the encoding of an instruction of the opcode
   table at offset 0, the decoder returns that instruction: its opcode, every operand's mode, register, constant
   (little-endian), type and (own or inherited) expanded type, unused slots cleared, and a length equal to the
   number of encoded bytes. *)
From Dmd Require Import Proofs.EncodeProofs Proofs.DecodeSim Proofs.MachKit Proofs.BusProofs Model.Bus Model.Cpu.

Theorem C04_decode_of_encoded_operand :
  forall bs t a dt et len fuel,
    wf_opnd t a -> window bs len (enc_opnd t a) -> 0 <= len -> len + Z.of_nat (length (enc_opnd t a)) <= 32 ->
    (2 <= fuel)%nat ->
    exists o, decode_descriptor unit (bfetch1 bs) (bfetch2 bs) (bfetch4 bs) fuel dt et false len tt
              = Ok (o, len + Z.of_nat (length (enc_opnd t a))) tt
              /\ opnd_is o a dt (et_after t et).
Proof. exact decode_opnd. Qed.
Print Assumptions C04_decode_of_encoded_operand.

Theorem C04_decode_of_encoded_instruction :
  forall bs mn args,
    in_table mn -> args_fit (mn_dtype mn) (mn_ops mn) args -> window bs 0 (enc_instr mn args) ->
    Z.of_nat (length (enc_instr mn args)) <= 32 ->
    exists i, decode_bytes bs = Ok i tt
      /\ iopcode i = mn_opcode mn
      /\ ilen i = Z.of_nat (length (enc_instr mn args))
      /\ exists os, ops_are (mn_dtype mn) None (mn_ops mn) args os
           /\ op0 i = nth 0 os operand_clear /\ op1 i = nth 1 os operand_clear
           /\ op2 i = nth 2 os operand_clear /\ op3 i = nth 3 os operand_clear.
Proof. exact decode_encoded_instruction. Qed.
Print Assumptions C04_decode_of_encoded_instruction.

(* decoding depends on nothing but the bytes at the program counter: on the machine (code in RAM) it is the
   decoding of the 36 bytes there, and it changes nothing *)
Theorem C04_decode_is_decode_of_code_bytes :
  forall m,
    bus_wf (mbus m) -> RAMB <= R m R_PC -> R m R_PC + 36 <= RAME -> (forall a, 0 <= ramb m a < 256) ->
    same_decode (decode m) m (decode_bytes (code_bytes m 36)).
Proof.
  intros m W H1 H2 Hb.
  pose proof (decode_instruction_sim mach unit fetch1 fetch2 fetch4
                (bfetch1 (code_bytes m 36)) (bfetch2 (code_bytes m 36)) (bfetch4 (code_bytes m 36))
                (fun m' _ => m' = m)) as K.
  unfold decode, decode_bytes, same_decode.
  assert (K' : isim mach unit (fun m' _ => m' = m) (decode_instruction mach fetch1 fetch2 fetch4 m)
                 (decode_instruction unit (bfetch1 (code_bytes m 36)) (bfetch2 (code_bytes m 36)) (bfetch4 (code_bytes m 36)) tt)).
  { apply K; auto.
    - intros off s t Ho ->. rewrite fetch1_ram by (auto; lia). unfold bfetch1. rewrite byte_at_code by lia. auto.
    - intros off s t Ho ->. rewrite fetch2_ram by (auto; lia). unfold bfetch2. rewrite !byte_at_code by lia.
      replace (R m R_PC + (off + 1)) with (R m R_PC + off + 1) by lia. auto.
    - intros off s t Ho ->. rewrite fetch4_ram by (auto; lia). unfold bfetch4. rewrite !byte_at_code by lia.
      replace (R m R_PC + (off + 1)) with (R m R_PC + off + 1) by lia.
      replace (R m R_PC + (off + 2)) with (R m R_PC + off + 2) by lia.
      replace (R m R_PC + (off + 3)) with (R m R_PC + off + 3) by lia. auto.
    - intros off t. unfold bfetch1. destruct (byte_at (code_bytes m 36) off) eqn:E; auto.
      unfold byte_at in E. destruct (off <? 0); [discriminate|]. apply nth_error_In in E.
      unfold code_bytes in E. apply in_map_iff in E. destruct E as [k [<- _]]. apply Hb. }
  unfold isim in K'.
  destruct (decode_instruction mach fetch1 fetch2 fetch4 m);
    destruct (decode_instruction unit (bfetch1 (code_bytes m 36)) (bfetch2 (code_bytes m 36)) (bfetch4 (code_bytes m 36)) tt); auto.
Qed.
Print Assumptions C04_decode_is_decode_of_code_bytes.

(* two machines with the same 36 bytes at their program counters decode alike *)
Theorem C04_decode_depends_only_on_code :
  forall m1 m2,
    bus_wf (mbus m1) -> bus_wf (mbus m2) ->
    RAMB <= R m1 R_PC -> R m1 R_PC + 36 <= RAME -> RAMB <= R m2 R_PC -> R m2 R_PC + 36 <= RAME ->
    (forall a, 0 <= ramb m1 a < 256) -> (forall a, 0 <= ramb m2 a < 256) ->
    code_bytes m1 36 = code_bytes m2 36 ->
    match decode m1, decode m2 with
    | Ok i m1', Ok j m2' => i = j /\ m1' = m1 /\ m2' = m2
    | Err e m1', Err e' m2' => e = e' /\ m1' = m1 /\ m2' = m2
    | _, _ => False
    end.
Proof.
  intros m1 m2 W1 W2 A1 A2 B1 B2 C1 C2 E.
  pose proof (C04_decode_is_decode_of_code_bytes m1 W1 A1 A2 C1) as K1.
  pose proof (C04_decode_is_decode_of_code_bytes m2 W2 B1 B2 C2) as K2.
  rewrite E in K1. unfold same_decode in *.
  destruct (decode m1), (decode m2), (decode_bytes (code_bytes m2 36)); try contradiction; intuition congruence.
Qed.
Print Assumptions C04_decode_depends_only_on_code.

(* the model's dispatch has arms only for opcodes the source's dispatch `match` names (patterns translated from cpu.rs
   on every run): any other opcode is an illegal opcode in the model *)
From Dmd Require Import Proofs.Arms Proofs.DispatchTie.
Theorem C04_model_dispatch_within_source_arms :
  forall ir m, ~ In (iopcode ir) source_arm_opcodes -> exec ir m = Err (EExc IllegalOpcode) m.
Proof.
  intros ir m N.
  assert (H : forall c, inb c source_arm_opcodes = true -> (iopcode ir =? c) = false).
  { intros c Hc. apply Z.eqb_neq. intros E. apply N. rewrite E.
    apply existsb_exists in Hc as (x & Hx & Ex). apply Z.eqb_eq in Ex. now subst. }
  unfold exec. cbv zeta. rewrite (branch_pred_none _ H).
  (* the conditional branches and returns have no predicate here, so their match falls through *)
  cbv iota. as_ifs (iopcode ir). apply ifs_all_false. cbn [map fst].
  repeat (constructor; [rewrite !H by reflexivity; reflexivity|]). constructor.
Qed.
Print Assumptions C04_model_dispatch_within_source_arms.
