(* C02  Integer instructions compute the architected result and condition codes.
   Statements about the arithmetic each dispatch arm performs, which arm an opcode takes and the fault cases; then
   whole-instruction final states (destination, all four condition codes, everything else unchanged). *)
From Coq Require Import ZArith List Bool Lia ZifyBool.
From Dmd Require Import Model.Bits Model.Types Model.Bus Model.Cpu Gen.GenFlags.
From Dmd Require Import Proofs.BitsLemmas Proofs.BitKit Proofs.RegKit Proofs.BusProofs Proofs.MachKit Proofs.OperandProofs Proofs.Arms
     Proofs.FlagKit Proofs.AluProofs Proofs.AluFinal Proofs.FlagTie.
Open Scope Z_scope.

(* results are the mathematical sum / difference / product modulo 2^32, and their low 8 / 16 bits (what a
   byte / halfword destination keeps) are the result modulo 2^8 / 2^16 *)
Theorem C02_results_are_modular :
  forall a b,
    w32 (a + b) = (a + b) mod 2 ^ 32 /\ w32 (a - b) = (a - b) mod 2 ^ 32 /\ w32 (a * b) = (a * b) mod 2 ^ 32
    /\ w8 (w32 (a + b)) = (a + b) mod 256 /\ w16 (w32 (a + b)) = (a + b) mod 65536
    /\ w8 (w32 (a - b)) = (a - b) mod 256 /\ w16 (w32 (a - b)) = (a - b) mod 65536
    /\ w8 (w32 (a * b)) = (a * b) mod 256 /\ w16 (w32 (a * b)) = (a * b) mod 65536.
Proof. intros a b. unfold w8, w16, w32. repeat split; Z.div_mod_to_equations; lia. Qed.
Print Assumptions C02_results_are_modular.

(* the carry test of Cpu::add, sum > 0xffffffff / 0xff, holds exactly when the sum reaches 2^32 / 2^8 *)
Theorem C02_add_carry :
  forall a b,
    (0 <= a < 2 ^ 32 -> 0 <= b < 2 ^ 32 -> ((a + b >? 4294967295) = true <-> 2 ^ 32 <= a + b))
    /\ (0 <= a < 256 -> 0 <= b < 256 -> ((a + b >? 255) = true <-> 256 <= a + b)).
Proof. intros a b. split; intros _ _; rewrite Z.gtb_lt; lia. Qed.
Print Assumptions C02_add_carry.

(* signed overflow of word additions: the (a ^ ~b) & (a ^ r) & 0x80000000 test <-> the signed sum leaves [-2^31, 2^31) *)
Theorem C02_add_overflow_word :
  forall a b, 0 <= a < 4294967296 -> 0 <= b < 4294967296 ->
    bset (Z.land (Z.lxor a (not32 b)) (Z.lxor a (w32 (a + b)))) 2147483648
    = negb ((-2147483648 <=? s32 a + s32 b) && (s32 a + s32 b <? 2147483648)).
Proof. exact add_overflow_word. Qed.
Print Assumptions C02_add_overflow_word.

(* borrow of subtract / compare: C = (subtrahend > minuend) as unsigned numbers; sign extension of halfword
   operands preserves the unsigned order, so the test on the extended values is the halfword borrow *)
Theorem C02_sub_borrow :
  forall a b, ((b >? a) = true <-> a - b < 0) /\ (sext16 b >? sext16 a) = (w16 b >? w16 a).
Proof.
  intros a b. split; [rewrite Z.gtb_lt; lia|].
  unfold sext16. pose proof (w16_range a). pose proof (w16_range b).
  destruct (w16 a <? 32768) eqn:Ea, (w16 b <? 32768) eqn:Eb; lia.
Qed.
Print Assumptions C02_sub_borrow.

(* compare: equality and unsigned order at every size, signed order at word and halfword size *)
Theorem C02_cmp_flags :
  forall a b,
    (0 <= a < 2 ^ 32 -> 0 <= b < 2 ^ 32 ->
       ((b =? a) = true <-> b = a) /\ ((s32 b <? s32 a) = true <-> s32 b < s32 a) /\ ((b <? a) = true <-> b < a))
    /\ (((w16 b =? w16 a) = true <-> b mod 65536 = a mod 65536)
        /\ ((s16 b <? s16 a) = true <-> s16 b < s16 a) /\ ((w16 b <? w16 a) = true <-> b mod 65536 < a mod 65536))
    /\ (((w8 b =? w8 a) = true <-> b mod 256 = a mod 256) /\ ((w8 b <? w8 a) = true <-> b mod 256 < a mod 256)).
Proof. intros a b. unfold w16, w8. rewrite !Z.eqb_eq, !Z.ltb_lt. tauto. Qed.
Print Assumptions C02_cmp_flags.

(* truncating signed quotient (word, halfword) and remainder (word); unsigned quotient for byte *)
Theorem C02_div_mod_results :
  forall a b q,
    (div_val a b DWord = Some q -> s32 a <> 0 /\ q = w32 (Z.quot (s32 b) (s32 a)))
    /\ (mod_val a b DWord = Some q -> s32 a <> 0 /\ q = w32 (Z.rem (s32 b) (s32 a)))
    /\ (div_val a b DHalf = Some q -> s16 a <> 0 /\ q = sext16 (w16 (Z.quot (s16 b) (s16 a))))
    /\ (div_val a b DByte = Some q -> w8 a <> 0 /\ q = w8 b / w8 a).
Proof.
  intros a b q. unfold div_val, mod_val. repeat split.
  all: destruct (_ =? 0) eqn:E; [discriminate|]; first [now apply Z.eqb_neq | congruence].
Qed.
Print Assumptions C02_div_mod_results.

Theorem C02_min_div_minus_one_wraps :
  div_val 4294967295 2147483648 DWord = Some 2147483648
  /\ mod_val 4294967295 2147483648 DWord = Some 0
  /\ div_val 4294967295 4294934528 DHalf = Some 4294934528
  /\ mod_val 4294967295 4294934528 DHalf = Some 0.
Proof. exact min_div_minus_one_wraps. Qed.
Print Assumptions C02_min_div_minus_one_wraps.

(* division / remainder by zero: an integer-zero-divide fault raised before anything is written *)
Theorem C02_div_by_zero_faults :
  forall ir m dst oa ob m1 m2 b,
    read_op ir 0 m = Ok 0 m1 -> read_op ir 1 m1 = Ok b m2 ->
    div_arm ir dst oa ob m = Err (EExc IntegerZeroDivide) m2 /\ mod_arm ir dst m = Err (EExc IntegerZeroDivide) m2.
Proof. exact div_by_zero_faults. Qed.
Print Assumptions C02_div_by_zero_faults.

(* shifts: logical left = multiply modulo 2^32, logical right = floor division, arithmetic right = floor
   division of the signed value, for every count *)
Theorem C02_shift_results :
  forall a n, 0 <= n ->
    w32 (Z.shiftl a n) = (a * 2 ^ n) mod 2 ^ 32 /\ Z.shiftr a n = a / 2 ^ n
    /\ w32 (Z.shiftr (s32 a) n) = (s32 a / 2 ^ n) mod 2 ^ 32
    /\ w32 (Z.shiftr (s16 a) n) = (s16 a / 2 ^ n) mod 2 ^ 32
    /\ Z.shiftr (w8 a) n = (a mod 256) / 2 ^ n.
Proof.
  intros a n H. unfold w32, w8. rewrite Z.shiftl_mul_pow2, !Z.shiftr_div_pow2 by exact H. repeat split.
Qed.
Print Assumptions C02_shift_results.

(* which computation the AND / OR / XOR / MUL opcodes perform (2- and 3-operand forms; numbers are architected) *)
Theorem C02_opcode_arms :
  forall ir m,
    (iopcode ir = 184 \/ iopcode ir = 186 \/ iopcode ir = 187 -> exec ir m = alu_std ir Z.land 1 m)
    /\ (iopcode ir = 248 \/ iopcode ir = 250 \/ iopcode ir = 251 -> exec ir m = alu_std ir Z.land 2 m)
    /\ (iopcode ir = 176 \/ iopcode ir = 178 \/ iopcode ir = 179 -> exec ir m = alu_std ir Z.lor 1 m)
    /\ (iopcode ir = 240 \/ iopcode ir = 242 \/ iopcode ir = 243 -> exec ir m = alu_std ir Z.lor 2 m)
    /\ (iopcode ir = 180 \/ iopcode ir = 182 \/ iopcode ir = 183 -> exec ir m = alu_std ir Z.lxor 1 m)
    /\ (iopcode ir = 244 \/ iopcode ir = 246 \/ iopcode ir = 247 -> exec ir m = alu_std ir Z.lxor 2 m)
    /\ (iopcode ir = 168 \/ iopcode ir = 170 \/ iopcode ir = 171 -> exec ir m = alu_std ir (fun a b => w32 (a * b)) 1 m)
    /\ (iopcode ir = 232 \/ iopcode ir = 234 \/ iopcode ir = 235 -> exec ir m = alu_std ir (fun a b => w32 (a * b)) 2 m).
Proof.
  intros ir m. repeat split.
  all: first [apply exec_and | apply exec_or | apply exec_xor | apply exec_mul].
Qed.
Print Assumptions C02_opcode_arms.

(* whole-instruction final states (register-to-register word forms): destination value, all four
   condition codes, every other register, and memory *)

Theorem C02_add_word_final_state :
  forall ir m rs rt rd,
    0 <= rd <= 10 -> word (R m rs) -> word (R m rt) ->
    (iopcode ir = 156 /\ reg_word ir 0 rs /\ reg_word ir 1 rd /\ rt = rd)
    \/ (iopcode ir = 220 /\ reg_word ir 0 rs /\ reg_word ir 1 rt /\ reg_word ir 2 rd) ->
    let a := R m rs in let b := R m rt in
    exists m', exec ir m = Ok (ilen ir) m'
      /\ word_outcome m m' rd ((a + b) mod 2 ^ 32) (Z.testbit ((a + b) mod 2 ^ 32) 31) ((a + b) mod 2 ^ 32 =? 0)
           (negb ((-2147483648 <=? s32 a + s32 b) && (s32 a + s32 b <? 2147483648))) (2 ^ 32 <=? a + b).
Proof.
  intros ir m rs rt rd Hd Wa Wb [[Ho [S [D ->]]]|[Ho [S [T D]]]].
  - apply (add_word_final ir m 1); auto. apply exec_add; auto.
  - apply (add_word_final ir m 2); auto. apply exec_add; auto.
Qed.
Print Assumptions C02_add_word_final_state.

Theorem C02_sub_word_final_state :
  forall ir m rs rt rd,
    0 <= rd <= 10 ->
    (iopcode ir = 188 /\ reg_word ir 0 rs /\ reg_word ir 1 rd /\ rt = rd)
    \/ (iopcode ir = 252 /\ reg_word ir 0 rs /\ reg_word ir 1 rt /\ reg_word ir 2 rd) ->
    let a := R m rt in let b := R m rs in
    exists m', exec ir m = Ok (ilen ir) m'
      /\ R m' rd = (a - b) mod 2 ^ 32
      /\ flag F_N m' = Z.testbit ((a - b) mod 2 ^ 32) 31 /\ flag F_Z m' = ((a - b) mod 2 ^ 32 =? 0)
      /\ flag F_C m' = (a <? b) /\ flag F_V m' = false
      /\ (forall i, 0 <= i <= 15 -> i <> rd -> i <> 11 -> R m' i = R m i) /\ mbus m' = mbus m.
Proof.
  intros ir m rs rt rd Hd [[Ho [S [D ->]]]|[Ho [S [T D]]]].
  - apply (sub_word_final ir m 1); auto. apply exec_sub; auto.
  - apply (sub_word_final ir m 2); auto. apply exec_sub; auto.
Qed.
Print Assumptions C02_sub_word_final_state.

Theorem C02_logic_mul_word_final_state :
  forall ir m f dst rs rt rd,
    std_word_arm (iopcode ir) = Some (f, dst) -> reg_word ir 0 rs -> reg_word ir 1 rt -> reg_word ir dst rd ->
    0 <= rd <= 10 ->
    let res := f (R m rs) (R m rt) in
    exists m', exec ir m = Ok (ilen ir) m' /\ word_outcome m m' rd res (Z.testbit res 31) (res =? 0) false false.
Proof.
  intros ir m f dst rs rt rd.
  intros Ha S T [Dm [Dr [Dt _]]] Hd res.
  rewrite (std_arm_exec ir m f dst (std_word_arm_std _ _ Ha)).
  pose proof (alu_std_sized_final ir f dst rd m _ _ (read_reg_word ir 0 rs m S) (read_reg_word ir 1 rt m T) Dm Dr Hd) as H.
  rewrite Dt in H. apply H. discriminate.
Qed.
Print Assumptions C02_logic_mul_word_final_state.

(* the premises are met by ordinary instructions:  ADDW2 %r1,%r2  and  XORW3 %r1,%r2,%r3 *)
Example C02_final_state_premises :
  let rg r := mkOperand 1 MRegister DWord None (Some r) 0 in
  let add2 := mkInstr 156 3 (rg 1) (rg 2) operand_clear operand_clear in
  let xor3 := mkInstr 244 4 (rg 1) (rg 2) (rg 3) operand_clear in
  (iopcode add2 = 156 /\ reg_word add2 0 1 /\ reg_word add2 1 2)
  /\ (std_word_arm (iopcode xor3) = Some (Z.lxor, 2) /\ reg_word xor3 0 1 /\ reg_word xor3 1 2 /\ reg_word xor3 2 3).
Proof. cbv zeta. unfold reg_word. cbn. repeat split. Qed.

(* every size: AND / OR / XOR / MUL (24 opcodes) with a register destination and side-effect-free source reads:
   N is the sign bit at the operand size, Z says the result truncated to the operand size is zero, C = 0, and V
   says the 32-bit result exceeds the largest unsigned value of the operand size *)
Theorem C02_logic_mul_final_state_every_size :
  forall ir m f dst r a b,
    std_arm (iopcode ir) = Some (f, dst) -> read_op ir 0 m = Ok a m -> read_op ir 1 m = Ok b m ->
    omode (get_op ir dst) = MRegister -> oreg (get_op ir dst) = Some r -> 0 <= r <= 10 ->
    otype (get_op ir dst) <> DNone ->
    let t := otype (get_op ir dst) in
    exists m', exec ir m = Ok (ilen ir) m'
      /\ word_outcome m m' r (f a b) (Z.testbit (f a b) (sign_bit t)) (trunc_to t (f a b) =? 0) (too_big t (f a b)) false.
Proof. intros ir m f dst r a b. intros Ha. rewrite (std_arm_exec ir m f dst Ha). apply alu_std_sized_final. Qed.
Print Assumptions C02_logic_mul_final_state_every_size.

(* the add / subtract helpers at halfword and byte size; the carry of add is the test the code makes: the sum of
   the operands as read (sign-extended to 32 bits when the type is signed) exceeds 0xffff / 0xff *)
Theorem C02_add_sub_final_state_small_sizes :
  forall ir a b dst r m,
    omode (get_op ir dst) = MRegister -> oreg (get_op ir dst) = Some r -> 0 <= r <= 10 ->
    let t := otype (get_op ir dst) in
    (oetype (get_op ir dst) = None -> (t = DHalf \/ t = DByte) ->
       let res := w32 (a + b) in
       let top := if dtype_eqb t DHalf then 15 else 7 in
       exists m', add_op ir a b dst m = Ok tt m'
         /\ word_outcome m m' r res (Z.testbit res top) (trunc_to t res =? 0)
              (Z.testbit (Z.land (Z.lxor a (not32 b)) (Z.lxor a res)) top)
              (a + b >? (if dtype_eqb t DHalf then 65535 else 255)))
    /\ (t <> DNone ->
       let res := w32 (a - b) in
       exists m', sub_op ir a b dst m = Ok tt m'
         /\ word_outcome m m' r res (Z.testbit res (sign_bit t)) (trunc_to t res =? 0) (too_big t res) (a <? b)).
Proof.
  intros ir a b dst r m Hm Hr Hr10 t. split.
  - intros He Ht. subst t.
    assert (N : otype (get_op ir dst) <> DNone) by (destruct Ht as [Ht|Ht]; rewrite Ht; discriminate).
    destruct (add_op_final ir a b dst r m Hm Hr Hr10 He N) as [m' O].
    exists m'. destruct Ht as [Ht|Ht]; rewrite Ht in *; exact O.
  - intros Ht. exact (sub_op_sized_final ir a b dst r m Hm Hr Hr10 Ht).
Qed.
Print Assumptions C02_add_sub_final_state_small_sizes.

(* a word destination in memory (any memory addressing mode, effective address in RAM): the word at that address
   is the result, the condition codes are as for a register destination, no register but the PSW and no other
   RAM byte changes *)
Theorem C02_logic_mul_word_final_state_memory_destination :
  forall ir m f dst a x y,
    std_arm (iopcode ir) = Some (f, dst) -> read_op ir 0 m = Ok x m -> read_op ir 1 m = Ok y m ->
    memory_mode (omode (get_op ir dst)) -> effective_address ir dst m = Ok a m ->
    data_type (get_op ir dst) = DWord -> otype (get_op ir dst) = DWord ->
    bus_wf (mbus m) -> in_ram_w a ->
    let res := f x y in
    exists m', exec ir m = Ok (ilen ir) m'
      /\ ldw m' a = w32 res
      /\ flag F_N m' = Z.testbit res 31 /\ flag F_Z m' = (res =? 0) /\ flag F_C m' = false /\ flag F_V m' = false
      /\ (forall i, 0 <= i <= 15 -> i <> 11 -> R m' i = R m i)
      /\ (forall b, RAMB <= b -> (b < a \/ a + 4 <= b) -> ramb m' b = ramb m b).
Proof.
  intros ir m f dst a x y.
  intros Ha R0 R1 Hmode He Hdt Hot W Hr res. rewrite (std_arm_exec ir m f dst Ha).
  unfold alu_std. rewrite R0. cbn [bind]. rewrite R1. cbn [bind].
  rewrite (write_memory_size ir dst (f x y) m a m Hmode He), Hdt, wr_word_ram by assumption. cbn [bind].
  eexists. split; [reflexivity|].
  assert (N : otype (get_op ir dst) <> DNone) by (rewrite Hot; discriminate).
  rewrite set_nz_flags_sized, set_v_flag_op_sized, Hot by exact N. cbn [sign_bit trunc_to too_big]. fold res.
  destruct (cc_outcome (stw m a res) (Z.testbit res 31) (res =? 0) false false) as (Fz & Fn & Fc & Fv & Ro & Eb).
  destruct Hr as (A1 & A2 & A3). repeat split; try assumption.
  - unfold set_v, set_c, set_z, set_n. rewrite !ldw_setf. apply ldw_stw_same; lia.
  - intros b Hb Hd. unfold ramb. rewrite Eb. fold (ramb (stw m a res) b). apply ramb_stw_other; lia.
Qed.
Print Assumptions C02_logic_mul_word_final_state_memory_destination.

(* logical shifts and rotate, word size, register destination: LLSW3 (208) shifts left by count mod 32 and truncates
   to 32 bits, LRSW3 (212) shifts right, ROTW (216) rotates right; N, Z from the result, C = V = 0 *)
Theorem C02_shift_rotate_word_final_state :
  forall ir m cnt v r res,
    shift_result (iopcode ir) cnt v = Some res ->
    read_op ir 0 m = Ok cnt m -> read_op ir 1 m = Ok v m ->
    omode (get_op ir 2) = MRegister -> oreg (get_op ir 2) = Some r -> 0 <= r <= 10 -> otype (get_op ir 2) = DWord ->
    exists m', exec ir m = Ok (ilen ir) m'
      /\ word_outcome m m' r res (Z.testbit res 31) (res =? 0) false false.
Proof.
  intros ir m cnt v r res.
  unfold shift_result. cbv zeta. intros Hs R0 R1 Hm Hr Hr10 Ht.
  assert (N : otype (get_op ir 2) <> DNone) by (rewrite Ht; discriminate).
  pose proof (put_reg ir 2 r res false (ilen ir) m Hm Hr Hr10 N false) as P.
  pose proof (put_reg_vop ir 2 r res false (ilen ir) m Hm Hr Hr10 N) as P'.
  rewrite Ht in P, P'. cbn [sign_bit trunc_to too_big] in P, P'.
  destruct (Z.eqb_spec (iopcode ir) 208) as [E|_]; [|destruct (Z.eqb_spec (iopcode ir) 212) as [E|_];
    [|destruct (Z.eqb_spec (iopcode ir) 216) as [E|_]; [|discriminate]]]; injection Hs as <-.
  - rewrite (exec_llsw3 ir m E), R1. cbn [bind]. rewrite R0. exact P'.
  - rewrite (exec_lrsw3 ir m E), R1. cbn [bind]. rewrite R0. exact P'.
  - rewrite (exec_rotw ir m E), R0. cbn [bind]. rewrite R1. exact P.
Qed.
Print Assumptions C02_shift_rotate_word_final_state.

(* moves and unary operations (MOV, MCOM, MNEG at every size) *)
Theorem C02_move_unary_final_state :
  forall ir m a r res,
    unary_result (iopcode ir) a = Some res -> read_op ir 0 m = Ok a m ->
    omode (get_op ir 1) = MRegister -> oreg (get_op ir 1) = Some r -> 0 <= r <= 10 -> otype (get_op ir 1) <> DNone ->
    let t := otype (get_op ir 1) in
    exists m', exec ir m = Ok (ilen ir) m'
      /\ word_outcome m m' r res (Z.testbit res (sign_bit t)) (trunc_to t res =? 0) (too_big t res) false.
Proof.
  intros ir m a r res.
  intros Hs R0 Hm Hr Hr10 Ht t. unfold unary_result in Hs.
  destruct ((iopcode ir =? 132) || (iopcode ir =? 134) || (iopcode ir =? 135)) eqn:E1;
    [|destruct ((iopcode ir =? 136) || (iopcode ir =? 138) || (iopcode ir =? 139)) eqn:E2;
      [|destruct ((iopcode ir =? 140) || (iopcode ir =? 142) || (iopcode ir =? 143)) eqn:E3; [|discriminate]]];
    injection Hs as <-.
  - rewrite exec_movx by lia. exact (unary_arm_final ir (fun a => a) m a r R0 Hm Hr Hr10 Ht).
  - rewrite exec_mcom by lia. now apply unary_arm_final.
  - rewrite exec_mneg by lia. exact (unary_arm_final ir (fun a => w32 (not32 a + 1)) m a r R0 Hm Hr Hr10 Ht).
Qed.
Print Assumptions C02_move_unary_final_state.

Theorem C02_clr_final_state :
  forall ir m r,
    iopcode ir = 128 \/ iopcode ir = 130 \/ iopcode ir = 131 ->
    omode (get_op ir 0) = MRegister -> oreg (get_op ir 0) = Some r -> 0 <= r <= 10 ->
    exists m', exec ir m = Ok (ilen ir) m' /\ word_outcome m m' r 0 false true false false.
Proof.
  intros ir m r.
  intros Ho Hm Hr Hr10. rewrite exec_clr, (write_register ir 0 0 m r Hm Hr) by exact Ho. cbn [bind].
  eexists. split; [reflexivity | apply reg_outcome; lia].
Qed.
Print Assumptions C02_clr_final_state.

Theorem C02_compare_test_word_final_state :
  forall ir m a b,
    read_op ir 0 m = Ok a m ->
    (iopcode ir = 60 -> read_op ir 1 m = Ok b m ->
       exists m', exec ir m = Ok (ilen ir) m'
         /\ flag F_Z m' = (b =? a) /\ flag F_N m' = (s32 b <? s32 a) /\ flag F_C m' = (b <? a) /\ flag F_V m' = false
         /\ (forall i, 0 <= i <= 15 -> i <> 11 -> R m' i = R m i) /\ mbus m' = mbus m)
    /\ (iopcode ir = 40 ->
       exists m', exec ir m = Ok (ilen ir) m'
         /\ flag F_Z m' = (a =? 0) /\ flag F_N m' = (s32 a <? 0) /\ flag F_C m' = false /\ flag F_V m' = false
         /\ (forall i, 0 <= i <= 15 -> i <> 11 -> R m' i = R m i) /\ mbus m' = mbus m).
Proof.
  intros ir m a b R0. split.
  - intros Ho R1.
    rewrite exec_cmpw, R0 by exact Ho. cbn [bind]. rewrite R1. cbn [bind].
    eexists. split; [reflexivity|]. rewrite set_n_z_comm. apply cc_outcome.
  - intros Ho.
    rewrite exec_tstw, R0 by exact Ho. cbn [bind]. eexists. split; [reflexivity | apply cc_outcome].
Qed.
Print Assumptions C02_compare_test_word_final_state.

(* divide and remainder with a register destination (the six DIV and six MOD opcodes go through div_arm / mod_arm:
   exec_divw / exec_divh / exec_divb / exec_mod in Proofs/Arms.v): quotient / remainder as
   C02_div_mod_results defines them, N and Z from it at the operand size, C = 0 *)
Theorem C02_div_mod_final_state :
  forall ir dst m a b q r,
    read_op ir 0 m = Ok a m -> read_op ir 1 m = Ok b m -> a <> 0 ->
    omode (get_op ir dst) = MRegister -> oreg (get_op ir dst) = Some r -> 0 <= r <= 10 ->
    otype (get_op ir dst) <> DNone ->
    let t := otype (get_op ir dst) in
    (forall oa ob, div_val a b (otype (get_op ir 1)) = Some q ->
       exists m', div_arm ir dst oa ob m = Ok (ilen ir) m'
         /\ R m' r = q /\ flag F_N m' = Z.testbit q (sign_bit t) /\ flag F_Z m' = (trunc_to t q =? 0) /\ flag F_C m' = false
         /\ (forall i, 0 <= i <= 15 -> i <> r -> i <> 11 -> R m' i = R m i) /\ mbus m' = mbus m)
    /\ (mod_val a b (otype (get_op ir 1)) = Some q ->
       exists m', mod_arm ir dst m = Ok (ilen ir) m'
         /\ word_outcome m m' r q (Z.testbit q (sign_bit t)) (trunc_to t q =? 0) (too_big t q) false).
Proof.
  intros ir dst m a b q r R0 R1 Na Hm Hr Hr10 Ht t. split.
  - intros oa ob Hq.
    unfold div_arm. rewrite R0. cbn [bind]. rewrite R1. cbn [bind].
    replace (a =? 0) with false by lia. rewrite Hq, (write_register ir dst q m r Hm Hr). cbn [bind].
    eexists. split; [reflexivity|]. rewrite set_nz_flags_sized by exact Ht. fold t.
    (* V is set only on overflow and otherwise left alone: m0 is the state under the N, Z, C updates *)
    set (m0 := if (a =? oa) && (b =? ob) then set_v true (setR m r q) else setR m r q).
    assert (K : forall i, 0 <= i <= 15 -> i <> 11 -> R m0 i = R (setR m r q) i)
      by (intros; unfold m0; destruct (_ && _); [apply R_setf_other; lia | reflexivity]).
    assert (B : mbus m0 = mbus m) by (unfold m0; destruct (_ && _); reflexivity).
    split; [unfold set_c, set_z, set_n; rewrite !R_setf_other, K by lia; apply R_setR_same|].
    split; [flags; reflexivity|]. split; [flags; reflexivity|]. split; [flags; reflexivity|].
    split; [|exact B]. intros i Hi N1 N2. unfold set_c, set_z, set_n. rewrite !R_setf_other, K by lia.
    apply R_setR_other; lia.
  - intros Hq.
    unfold mod_arm. rewrite R0. cbn [bind]. rewrite R1. cbn [bind].
    replace (a =? 0) with false by lia. rewrite Hq. now apply put_reg_vop.
Qed.
Print Assumptions C02_div_mod_final_state.

(* arithmetic right shifts at every size (the value shifted is the source taken at the type of operand 0, as
   C02_shift_results describes), register destination: N and Z from the result at the destination size, C = V = 0 *)
Theorem C02_arithmetic_shift_final_state :
  forall ir m cnt v r,
    iopcode ir = 196 \/ iopcode ir = 198 \/ iopcode ir = 199 ->
    read_op ir 0 m = Ok cnt m -> read_op ir 1 m = Ok v m ->
    omode (get_op ir 2) = MRegister -> oreg (get_op ir 2) = Some r -> 0 <= r <= 10 -> otype (get_op ir 2) <> DNone ->
    let t := otype (get_op ir 2) in
    let res := ars_value (data_type (op0 ir)) v (Z.land cnt 31) in
    exists m', exec ir m = Ok (ilen ir) m'
      /\ word_outcome m m' r res (Z.testbit res (sign_bit t)) (trunc_to t res =? 0) false false.
Proof.
  intros ir m cnt v r.
  intros Ho R0 R1 Hm Hr Hr10 Ht t res. rewrite (exec_ars ir m Ho), R1. cbn [bind]. rewrite R0. cbn [bind].
  now apply put_reg.
Qed.
Print Assumptions C02_arithmetic_shift_final_state.

(* CMPH / CMPB: equality and unsigned order of the operands at the operand size, signed order at halfword (and byte)
   size; nothing but the condition codes changes *)
Theorem C02_compare_small_final_state :
  forall ir m a b z n c,
    cmp_flags (iopcode ir) a b = Some (z, n, c) -> read_op ir 0 m = Ok a m -> read_op ir 1 m = Ok b m ->
    exists m', exec ir m = Ok (ilen ir) m'
      /\ flag F_Z m' = z /\ flag F_N m' = n /\ flag F_C m' = c /\ flag F_V m' = false
      /\ (forall i, 0 <= i <= 15 -> i <> 11 -> R m' i = R m i) /\ mbus m' = mbus m.
Proof.
  intros ir m a b z n c.
  unfold cmp_flags. intros Hf R0 R1.
  destruct (Z.eqb_spec (iopcode ir) 62) as [E|_]; [|destruct (Z.eqb_spec (iopcode ir) 63) as [E|_]; [|discriminate]];
    injection Hf as <- <- <-; [rewrite (exec_cmph ir m E) | rewrite (exec_cmpb ir m E)];
    rewrite R0; cbn [bind]; rewrite R1; cbn [bind]; (eexists; split; [reflexivity|]);
    rewrite set_n_z_comm; apply cc_outcome.
Qed.
Print Assumptions C02_compare_small_final_state.

(* the condition-code setters and getters the theorems above speak about are Cpu::set_{c,v,z,n}_flag and
   Cpu::{c,v,z,n}_flag as they stand in /repo/src/cpu.rs (Gen/GenFlags.v: their bodies translated on every run) *)
Theorem C02_flag_helpers_are_source_functions :
  forall m b,
    (set_c b m = g_set_c_flag m b /\ set_v b m = g_set_v_flag m b /\ set_z b m = g_set_z_flag m b /\ set_n b m = g_set_n_flag m b)
    /\ (flag F_C m = g_c_flag m /\ flag F_V m = g_v_flag m /\ flag F_Z m = g_z_flag m /\ flag F_N m = g_n_flag m).
Proof.
  intros m b. split; [|apply getters_are_source].
  unfold set_c, set_v, set_z, set_n, setf, setPSW, PSW, g_set_c_flag, g_set_v_flag, g_set_z_flag, g_set_n_flag.
  destruct b; repeat apply conj; reflexivity.
Qed.
Print Assumptions C02_flag_helpers_are_source_functions.
