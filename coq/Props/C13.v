(* C13  Bus faults enter the exception handler precisely and RETG resumes.
   ldw m a: the big-endian RAM word at a; romw: a ROM word; in_ram_w: word-aligned and inside RAM. *)
From Coq Require Import ZArith Lia List Bool.
From Dmd Require Import Model.Bits Model.Types Model.Bus Model.Decode Model.Cpu.
From Dmd Require Import Proofs.BitsLemmas Proofs.BusProofs Proofs.RegKit Proofs.MachKit Proofs.Arms
  Proofs.ExceptionProofs Proofs.PreciseProofs.
Open Scope Z_scope.

(* Cpu::step: an instruction that returns NoDevice / Read / Write (non-existent memory, ROM write, unsupported
   device access) takes the normal-exception path from the state the instruction left, PC not advanced *)
Theorem C13_bus_error_takes_exception_path :
  forall now m e m1, dispatch now m = Err (EBus e) m1 -> (e = BNoDevice \/ e = BRead \/ e = BWrite) ->
    step now m = match on_exception m1 with
                 | Ok _ m' => Ok tt m'
                 | Err _ _ => Panic
                 | Panic => Panic
                 | OutOfFuel => OutOfFuel
                 end.
Proof. intros now m e m1 H He. unfold step. rewrite H. destruct He as [->|[->| ->]]; reflexivity. Qed.
Print Assumptions C13_bus_error_takes_exception_path.

(* exception entry: the address of the faulting instruction at [SP], the PSW (ET 0, ISC 3, rest as at the fault) at
   [SP+4], SP + 8, new PC from the second-level gate table entry [[0] + 44], new PSW from [[0] + 40] merged as
   the architecture prescribes; r0-r10, PCBP, ISP untouched; no other RAM byte written *)
Theorem C13_exception_entry :
  forall m, bus_wf (mbus m) -> in_ram_w (R m R_SP) -> in_ram_w (R m R_SP + 4) ->
    let g := romw m 0 in
    in_ram_w (g + 40) -> in_ram_w (g + 44) -> (g + 48 <= R m R_SP \/ R m R_SP + 8 <= g + 40) ->
    exists m', on_exception m = Ok tt m'
      /\ R m' R_SP = R m R_SP + 8 /\ R m' R_PC = ldw m (g + 44)
      /\ PSW m' = gate_psw (ldw m (g + 40)) (exc_psw_pushed (PSW m))
      /\ ldw m' (R m R_SP) = w32 (R m R_PC) /\ ldw m' (R m R_SP + 4) = w32 (exc_psw_pushed (PSW m))
      /\ (forall i, 0 <= i <= 14 -> i <> 11 -> i <> 12 -> R m' i = R m i)
      /\ bus_wf (mbus m')
      /\ (forall a, RAMB <= a -> (a < R m R_SP \/ R m R_SP + 8 <= a) -> ramb m' a = ramb m a).
Proof.
  intros m W Hs Hs4 g Hg0 Hg4 Hd. unfold PSW. rconst. set (SP := R m 12) in *.
  pose proof Hs as [s1 _]. pose proof Hg0 as [a1 _]. pose proof Hg4 as [b1 _].
  (* the state when the gate is consulted: two words pushed, the PSW marked *)
  set (q := exc_psw_pushed (R m 11)).
  set (m2 := stw (setR (stw (setR m 11 (Z.lor (Z.lor (clr32 (clr32 (R m 11) F_ET) F_ISC) 3) 40)) SP (R m 15)) 11 q)
                 (SP + 4) q).
  assert (W2 : bus_wf (mbus m2)) by (unfold m2; auto with mach).
  assert (R2 : forall i, 0 <= i <= 15 -> i <> 11 -> R m2 i = R m i).
  { intros i Hi Ni. unfold m2. rewrite R_stw, R_setR_other, R_stw, R_setR_other by lia. reflexivity. }
  assert (Q2 : R m2 11 = q) by (unfold m2; now autorewrite with mach).
  assert (F2 : forall a, RAMB <= a -> a < SP \/ SP + 8 <= a -> ramb m2 a = ramb m a).
  { intros a Ha Da. unfold m2. rewrite ramb_stw_other, ramb_setR, ramb_stw_other, ramb_setR by lia. reflexivity. }
  assert (L2 : forall a, RAMB <= a -> a + 4 <= SP \/ SP + 8 <= a -> ldw m2 a = ldw m a)
    by (intros a Ha Da; apply (ldw_frame_blk _ _ SP 8 _ F2); lia).
  assert (E : on_exception m
              = Ok tt (setR (setR (setR m2 15 (ldw m (g + 44))) 11 (gate_psw (ldw m (g + 40)) q)) 12 (SP + 8))).
  { unfold on_exception, gate, setPSW, PSW. rconst. autorewrite with mach. fold SP.
    rewrite wr_word_ram by auto with mach. cbn [bind]. autorewrite with mach.
    fold SP (exc_psw_pushed (R m 11)). fold q. rewrite wr_word_ram by auto with mach. cbn [bind]. fold m2.
    rewrite rd_word_rom by (assumption || now unfold in_rom_w). cbn [bind].
    replace (romw m2 0) with g by (unfold m2; now rewrite romw_stw, romw_setR, romw_stw, romw_setR).
    rewrite rd_word_ram, L2 by (assumption || lia). cbn [bind].
    replace (g + 40 + 4) with (g + 44) by lia. rewrite rd_word_ram, L2 by (assumption || lia). cbn [bind].
    autorewrite with mach. rewrite (R2 12) by lia. fold SP. rewrite add32_small by (pose proof Hs4 as [_ [q2 _]]; unfold RAMB, RAME in *; lia).
    rewrite !Q2. unfold gate_psw. reflexivity. }
  rewrite E. eexists. split; [reflexivity|]. autorewrite with mach.
  do 3 (split; [reflexivity|]).
  split; [unfold m2; now rewrite ldw_stw_other, ldw_setR, ldw_stw_same by lia|].
  split; [unfold m2; now rewrite ldw_stw_same by lia|].
  split; [intros i Hi N11 N12; rewrite !R_setR_other by lia; apply R2; lia|].
  split; [rewrite !mbus_setR; exact W2|].
  intros a Ha Da. rewrite !ramb_setR. now apply F2.
Qed.
Print Assumptions C13_exception_entry.

(* the pushed PSW carries N Z V C (bits 21-18), CM (12-11), PM (10-9), I, R and IPL of the fault *)
Theorem C13_pushed_psw_is_fault_psw :
  forall psw k, In k [21; 20; 19; 18; 12; 11; 10; 9; 7; 8; 13; 14; 15; 16] ->
    Z.testbit (exc_psw_pushed psw) k = Z.testbit psw k.
Proof.
  intros psw k Hk. unfold exc_psw_pushed. cbn [In] in Hk. repeat (destruct Hk as [<-|Hk]; [now psw_bit|]). contradiction.
Qed.
Print Assumptions C13_pushed_psw_is_fault_psw.

(* RETG pops PSW and PC, SP - 8; condition codes, CM, PM, I from the popped word, IPL kept *)
Theorem C13_retg_effect :
  forall ir m, iopcode ir = 12357 -> bus_wf (mbus m) -> 8 <= R m R_SP < 4294967296 ->
    in_ram_w (R m R_SP - 4) -> in_ram_w (R m R_SP - 8) ->
    exists m', exec ir m = Ok 0 m' /\ mbus m' = mbus m
      /\ R m' R_PC = ldw m (R m R_SP - 8) /\ R m' R_SP = R m R_SP - 8
      /\ PSW m' = retg_psw (ldw m (R m R_SP - 4)) (PSW m)
      /\ (forall i, 0 <= i <= 14 -> i <> 11 -> i <> 12 -> R m' i = R m i).
Proof.
  intros ir m Ho W Hsp H4 H8. rewrite exec_retg by exact Ho.
  rewrite usub_small, rd_word_ram by (assumption || lia). cbn [bind].
  rewrite usub_small, rd_word_ram by (assumption || lia). cbn [bind]. cbv zeta.
  eexists. split; [reflexivity|]. split; [reflexivity|]. unfold setPSW, PSW. rconst.
  autorewrite with mach. rewrite (sub32_in_ram _ _ H8). repeat split.
  intros i Hi N11 N12. now rewrite !R_setR_other by lia.
Qed.
Print Assumptions C13_retg_effect.

(* fault -> handler entry -> RETG: program counter, stack pointer, N Z V C, execution level (CM) and previous
   level, and r0-r10 are exactly those in force at the fault *)
Theorem C13_retg_resumes :
  forall ir m, iopcode ir = 12357 ->
    bus_wf (mbus m) -> in_ram_w (R m R_SP) -> in_ram_w (R m R_SP + 4) -> R m R_SP + 8 < 4294967296 ->
    0 <= R m R_PC < 4294967296 ->
    let g := romw m 0 in
    in_ram_w (g + 40) -> in_ram_w (g + 44) -> (g + 48 <= R m R_SP \/ R m R_SP + 8 <= g + 40) ->
    exists m1 m2,
      on_exception m = Ok tt m1 /\ exec ir m1 = Ok 0 m2
      /\ R m2 R_PC = R m R_PC /\ R m2 R_SP = R m R_SP
      /\ (forall k, In k [21; 20; 19; 18; 12; 11; 10; 9; 7] -> Z.testbit (PSW m2) k = Z.testbit (PSW m) k)
      /\ (forall i, 0 <= i <= 10 -> R m2 i = R m i).
Proof.
  intros ir m Ho W Hs Hs4 Hlt Hpc g Hg0 Hg4 Hd.
  destruct (C13_exception_entry m W Hs Hs4 Hg0 Hg4 Hd) as (m1 & E1 & Sp1 & Pc1 & Psw1 & L0 & L4 & Ro & W1 & Fr).
  pose proof Hs as [s1 _].
  destruct (C13_retg_effect ir m1 Ho W1) as (m2 & E2 & B2 & Pc2 & Sp2 & Psw2 & Ro2);
    rewrite ?Sp1, ?Z.add_simpl_r; try assumption.
  { unfold RAMB in *. lia. } { now replace (R m R_SP + 8 - 4) with (R m R_SP + 4) by lia. }
  rewrite ?Sp1, ?Z.add_simpl_r in *. replace (R m R_SP + 8 - 4) with (R m R_SP + 4) in * by lia.
  exists m1, m2. split; [exact E1|]. split; [exact E2|].
  split; [rewrite Pc2, L0; now apply w32_id|]. split; [exact Sp2|]. split.
  - intros k Hk. rewrite Psw2, L4, retg_takes_bit, testbit_w32 by (assumption || (cbn [In] in Hk; lia)).
    apply C13_pushed_psw_is_fault_psw. cbn [In] in *. tauto.
  - intros i Hi. rewrite Ro2 by lia. apply Ro; lia.
Qed.
Print Assumptions C13_retg_resumes.

(* precision: whatever error a two-source ALU instruction of the AND/OR/XOR/MUL/ALS shape returns, every register
   including the PSW and every memory is as before the instruction *)
Theorem C13_alu_fault_precise :
  forall ir f dst m e m', alu_std ir f dst m = Err e m' -> state_kept m m'.
Proof. intros ir f dst m e m'. apply keeps_on_err_elim, alu_std_keeps. Qed.
Print Assumptions C13_alu_fault_precise.

(* likewise a MOV, and (for bus errors) an ADD *)
Theorem C13_mov_fault_precise :
  forall ir m e m', iopcode ir = 135 \/ iopcode ir = 134 \/ iopcode ir = 132 ->
    exec ir m = Err e m' -> state_kept m m'.
Proof. intros ir m e m' Ho. rewrite (exec_movx ir m Ho). apply keeps_on_err_elim, unary_arm_keeps. Qed.
Print Assumptions C13_mov_fault_precise.

Theorem C13_add_fault_precise :
  forall ir m e m', iopcode ir = 156 \/ iopcode ir = 158 \/ iopcode ir = 159 ->
    exec ir m = Err (EBus e) m' -> state_kept m m'.
Proof. intros ir m e m' Ho. apply bus_fault_leaves_state. destruct Ho as [->|[->| ->]]; reflexivity. Qed.
Print Assumptions C13_add_fault_precise.

(* operand reads never change registers or memories; a failing store has stored nothing *)
Theorem C13_operand_access_precise :
  forall ir k v m, keeps m (read_op ir k m) /\ keeps_on_err m (write_op ir k v m).
Proof. intros. split; [apply read_op_keeps | apply write_op_err_keeps]. Qed.
Print Assumptions C13_operand_access_precise.

(* precision for EVERY data-processing, move, compare / test, shift / rotate, bit-field, swap and push / pop
   opcode (100 opcodes, Proofs/PreciseProofs.v): when the instruction ends in a bus fault -- whichever operand it
   was, read or write, whatever the addressing modes -- all sixteen registers (condition codes included) and the
   four memories are exactly what they were before it started.  (state_kept m m' := ROM, display register, NVRAM
   and RAM equal, and the register file equal.) *)
Theorem C13_every_data_instruction_is_precise :
  forall ir m e m',
    precise_opcode (iopcode ir) = true -> exec ir m = Err (EBus e) m' -> state_kept m m'.
Proof. exact bus_fault_leaves_state. Qed.
Print Assumptions C13_every_data_instruction_is_precise.

(* the list is not empty of interesting cases: it has the divide, field, swap and stack instructions *)
Example C13_precise_opcodes_include :
  precise_opcode 172 = true /\ precise_opcode 236 = true /\ precise_opcode 204 = true /\ precise_opcode 200 = true
  /\ precise_opcode 28 = true /\ precise_opcode 160 = true /\ precise_opcode 32 = true /\ length
     (filter precise_opcode (map Z.of_nat (seq 0 256))) = 100%nat.
Proof. vm_compute. repeat split. Qed.
