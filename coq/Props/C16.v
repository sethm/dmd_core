(* C16  Reset reloads firmware and CPU state; NVRAM and RAM persist.
   Parametric in the four firmware arrays (any byte lists of the lengths the source declares). *)
From Coq Require Import ZArith List Bool Lia.
From Dmd Require Import Model.Bits Model.Types Model.Mem Model.Bus Model.Cpu Model.Dmd.
From Dmd Require Import Gen.GenRom Proofs.RegKit Proofs.BusProofs Proofs.ResetProofs Proofs.GenCheck.
Open Scope Z_scope.

(* the model's device geometry, PSW fields, register numbers and image lengths are the ones in the source *)
Theorem C16_model_constants_are_source_constants :
  (forall now, geom (rom (bus_new now)) = GenConsts.g_dev_rom /\ geom (bbram (bus_new now)) = GenConsts.g_dev_bbram
               /\ geom (ram (bus_new now)) = GenConsts.g_dev_ram)
  /\ (R_PSW, R_SP, R_PCBP, R_PC) = (GenConsts.g_R_PSW, GenConsts.g_R_SP, GenConsts.g_R_PCBP, GenConsts.g_R_PC)
  /\ (F_I, F_ISC) = (GenConsts.g_F_I, GenConsts.g_F_ISC)
  /\ g_LO_ROM_V1_LEN = 32768 /\ g_HI_ROM_V1_LEN = 32768 /\ g_LO_ROM_V2_LEN = 65536 /\ g_HI_ROM_V2_LEN = 65536
  /\ g_reset_shape_ok = true.
Proof.
  split; [intros now; pose proof (device_geometry_match now); tauto|].
  repeat split.
Qed.
Print Assumptions C16_model_constants_are_source_constants.

(* reset(version) from ANY prior state: whether Cpu::reset then succeeds or faults, the start of the ROM range
   (64 KiB for version 1, 128 KiB for any other number) holds exactly low half ++ high half of the selected image,
   the rest of ROM is as before, and RAM, NVRAM and the display register are untouched *)
Theorem C16_reset_loads_image :
  forall LO1 HI1 LO2 HI2,
    Z.of_nat (length LO1) = g_LO_ROM_V1_LEN -> Z.of_nat (length HI1) = g_HI_ROM_V1_LEN ->
    Z.of_nat (length LO2) = g_LO_ROM_V2_LEN -> Z.of_nat (length HI2) = g_HI_ROM_V2_LEN ->
    forall v m, bus_wf (mbus m) ->
      match dmd_reset LO1 HI1 LO2 HI2 v m with
      | Ok _ m' | Err _ m' =>
        (forall o, 0 <= o < image_len v -> mget (rom (mbus m')) o = image_at (sel_lo LO1 LO2 v) (sel_hi HI1 HI2 v) o)
        /\ (forall o, image_len v <= o -> mget (rom (mbus m')) o = mget (rom (mbus m)) o)
        /\ ram (mbus m') = ram (mbus m) /\ bbram (mbus m') = bbram (mbus m) /\ vid (mbus m') = vid (mbus m)
      | _ => True
      end.
Proof. exact dmd_reset_image. Qed.
Print Assumptions C16_reset_loads_image.

(* the loads themselves never fail or panic: reset = Cpu::reset on a well-formed bus holding the image *)
Theorem C16_reset_is_load_then_cpu_reset :
  forall LO1 HI1 LO2 HI2,
    Z.of_nat (length LO1) = g_LO_ROM_V1_LEN -> Z.of_nat (length HI1) = g_HI_ROM_V1_LEN ->
    Z.of_nat (length LO2) = g_LO_ROM_V2_LEN -> Z.of_nat (length HI2) = g_HI_ROM_V2_LEN ->
    forall v m, bus_wf (mbus m) ->
      exists b2, dmd_reset LO1 HI1 LO2 HI2 v m = cpu_reset (with_bus m b2)
        /\ bus_wf b2 /\ same_but_rom (mbus m) b2
        /\ (forall o, 0 <= o < image_len v -> mget (rom b2) o = image_at (sel_lo LO1 LO2 v) (sel_hi HI1 HI2 v) o)
        /\ (forall o, image_len v <= o -> mget (rom b2) o = mget (rom (mbus m)) o).
Proof. exact dmd_reset_loaded. Qed.
Print Assumptions C16_reset_is_load_then_cpu_reset.

(* registers read back through a run of updates *)
Ltac rsimp := repeat first [rewrite R_setR_same | rewrite R_setR_other by lia | rewrite R_with_bus].
Ltac rsimp_in H := repeat first [rewrite R_setR_same in H | rewrite R_setR_other in H by lia | rewrite R_with_bus in H].

(* Cpu::reset: control-block pointer from the word at 0x80; PSW, PC, SP from that block; if the I bit is set it is
   cleared and the pointer moves past the initial context (+12); ISC := 3; nothing else changes *)
Theorem C16_reset_cpu_state :
  forall m m', cpu_reset m = Ok tt m' ->
    exists pcbp psw pc sp b1 b2 b3,
      bus_read_word 128 (mbus m) = Ok pcbp b1 /\ bus_read_word pcbp b1 = Ok psw b2
      /\ bus_read_word (pcbp + 4) b2 = Ok pc b3 /\ bus_read_word (pcbp + 8) b3 = Ok sp (mbus m')
      /\ R m' R_PC = pc /\ R m' R_SP = sp
      /\ R m' R_PCBP = (if bset psw F_I then add32 pcbp 12 else pcbp)
      /\ R m' R_PSW = Z.lor (clr32 (if bset psw F_I then clr32 psw F_I else psw) F_ISC) 24
      /\ (forall i, 0 <= i <= 10 -> R m' i = R m i) /\ R m' R_ISP = R m R_ISP.
Proof.
  intros m m'. unfold cpu_reset, rd_word, liftb, setPSW, PSW. rconst. intros H.
  destruct (bus_read_word 128 (mbus m)) as [pcbp b1| | |] eqn:E1; cbn [bind] in H; try discriminate.
  cbn [mbus setR with_regs with_bus] in H. rsimp_in H.
  destruct (bus_read_word pcbp b1) as [psw b2| | |] eqn:E2; cbn [bind] in H; try discriminate.
  cbn [mbus setR with_regs with_bus] in H. rsimp_in H.
  destruct (bus_read_word (pcbp + 4) b2) as [pc b3| | |] eqn:E3; cbn [bind] in H; try discriminate.
  cbn [mbus setR with_regs with_bus] in H. rsimp_in H.
  destruct (bus_read_word (pcbp + 8) b3) as [sp b4| | |] eqn:E4; cbn [bind] in H; try discriminate.
  rsimp_in H.
  exists pcbp, psw, pc, sp, b1, b2, b3.
  destruct (bset psw F_I) eqn:EI; inversion H; subst m'; clear H; cbn [mbus setR with_regs with_bus];
    (split; [first [reflexivity|assumption]|]); (split; [first [reflexivity|assumption]|]); (split; [first [reflexivity|assumption]|]); (split; [exact E4|]);
    repeat split; rsimp; try reflexivity; intros; rsimp; reflexivity.
Qed.
Print Assumptions C16_reset_cpu_state.

(* Cpu::reset only reads: whatever it returns, ROM, display register, NVRAM, RAM and the dirty flag are unchanged *)
Theorem C16_cpu_reset_reads_only :
  forall m, match cpu_reset m with Ok _ m' | Err _ m' => mems_same (mbus m) (mbus m') | _ => True end.
Proof. exact cpu_reset_mems. Qed.
Print Assumptions C16_cpu_reset_reads_only.

(* repeated reset with the same version: the ROM is the same image again (all 128 KiB) *)
Theorem C16_reset_idempotent :
  forall LO1 HI1 LO2 HI2,
    Z.of_nat (length LO1) = g_LO_ROM_V1_LEN -> Z.of_nat (length HI1) = g_HI_ROM_V1_LEN ->
    Z.of_nat (length LO2) = g_LO_ROM_V2_LEN -> Z.of_nat (length HI2) = g_HI_ROM_V2_LEN ->
    forall v m m1 m2, bus_wf (mbus m) -> bus_wf (mbus m1) ->
      dmd_reset LO1 HI1 LO2 HI2 v m = Ok tt m1 -> dmd_reset LO1 HI1 LO2 HI2 v m1 = Ok tt m2 ->
      forall o, 0 <= o -> mget (rom (mbus m2)) o = mget (rom (mbus m1)) o.
Proof.
  intros LO1 HI1 LO2 HI2 L1 H1 L2 H2 v m m1 m2 W W1 E1 E2 o Ho.
  pose proof (dmd_reset_image LO1 HI1 LO2 HI2 L1 H1 L2 H2 v m W) as K1. rewrite E1 in K1.
  pose proof (dmd_reset_image LO1 HI1 LO2 HI2 L1 H1 L2 H2 v m1 W1) as K2. rewrite E2 in K2.
  destruct K1 as [A1 [B1 _]]. destruct K2 as [A2 [B2 _]].
  destruct (Z_lt_ge_dec o (image_len v)); [rewrite A2, A1 by lia | rewrite B2 by lia]; reflexivity.
Qed.
Print Assumptions C16_reset_idempotent.

(* the image the host snapshots is byte for byte what the guest reads at 0x600000 + i, in every well-formed
   state (hence at every instruction boundary), and a guest read there changes nothing *)
Theorem C16_nvram_host_guest_agree :
  forall b i, bus_wf b -> 0 <= i < 8192 ->
    bus_read_byte (6291456 + i) b = Ok (nth (Z.to_nat i) (bus_get_nvram b) 0) b.
Proof. exact nvram_host_guest_agree. Qed.
Print Assumptions C16_nvram_host_guest_agree.

(* an image the host restores is what the guest then reads; ROM, RAM, display register and DUART are untouched *)
Theorem C16_nvram_restore_visible :
  forall l b i, bus_wf b -> 0 <= i < 8192 -> i < Z.of_nat (length l) ->
    let b' := bus_set_nvram l b in
    bus_wf b' /\ bus_read_byte (6291456 + i) b' = Ok (w8 (nth (Z.to_nat i) l 0)) b'
    /\ rom b' = rom b /\ ram b' = ram b /\ vid b' = vid b /\ duart_ b' = duart_ b.
Proof. exact nvram_restore_visible. Qed.
Print Assumptions C16_nvram_restore_visible.

(* the hypotheses are satisfiable: the power-on bus is well formed *)
Example C16_nonvacuous : bus_wf (bus_new 0).
Proof. exact (bus_new_wf 0). Qed.
