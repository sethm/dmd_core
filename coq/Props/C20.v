(* C20  Pointer position and button events are visible to the guest as reported. *)
From Coq Require Import ZArith List Bool.
From Dmd Require Import Model.Bits Model.Fifo Model.Mem Model.Mouse Model.Duart Model.Bus
     Proofs.MemProofs Proofs.BusProofs Proofs.DuartProofs Proofs.DuartProofs2 Gen.GenDuart Gen.GenMouse.
Open Scope Z_scope.

(* halfword reads of the mouse registers return the coordinates last reported: vertical first, horizontal second *)
Theorem C20_mouse_regs_latest :
  forall x y b,
    let b' := bus_mouse_move x y b in
    bus_read_half 4194304 b' = Ok (w16 y) b' /\ bus_read_half 4194306 b' = Ok (w16 x) b'.
Proof. intros x y b. split; reflexivity. Qed.
Print Assumptions C20_mouse_regs_latest.

(* a bus access routed to any other device (write of any width, byte read) leaves the coordinates as they were *)
Theorem C20_mouse_regs_stable :
  forall a v b d, get_device a = Some d -> d <> DMouse ->
    (match bus_write_word a v b with Ok _ b' | Err _ b' => mouse_ b' = mouse_ b | _ => True end)
    /\ (match bus_write_half a v b with Ok _ b' | Err _ b' => mouse_ b' = mouse_ b | _ => True end)
    /\ (match bus_write_byte a v b with Ok _ b' | Err _ b' => mouse_ b' = mouse_ b | _ => True end)
    /\ (match bus_read_byte a b with Ok _ b' | Err _ b' => mouse_ b' = mouse_ b | _ => True end).
Proof.
  intros a v b d H N.
  pose proof (bus_write_frame W4 a v b d H) as F1. pose proof (bus_write_frame W2 a v b d H) as F2.
  pose proof (bus_write_frame W1 a v b d H) as F3. pose proof (bus_read_frame W1 a b d H) as F4.
  unfold res_frame, same_except in *. cbn [bus_read bus_write] in *.
  repeat split.
  - destruct (bus_write_word a v b); auto; apply F1; exact N.
  - destruct (bus_write_half a v b); auto; apply F2; exact N.
  - destruct (bus_write_byte a v b); auto; apply F3; exact N.
  - destruct (bus_read_byte a b); auto; apply F4; exact N.
Qed.
Print Assumptions C20_mouse_regs_stable.

Theorem C20_button_event_raises_request :
  forall d b,
    bset (ivec (mouse_down d b)) MOUSE_BLANK_INT = true /\ bset (isr (mouse_down d b)) ISTS_IPC = true
    /\ bset (ivec (mouse_up d b)) MOUSE_BLANK_INT = true /\ bset (isr (mouse_up d b)) ISTS_IPC = true.
Proof. exact button_event_raises_request. Qed.
Print Assumptions C20_button_event_raises_request.

Theorem C20_button_levels :
  forall d b, b = 0 \/ b = 1 \/ b = 2 ->
    bset (inprt (mouse_down d b)) (button_bit b) = false
    /\ bset (ipcr (mouse_down d b)) (change_bit b) = true
    /\ bset (inprt (mouse_up d b)) (button_bit b) = true
    /\ bset (ipcr (mouse_up d b)) (change_bit b) = true.
Proof. exact button_levels. Qed.
Print Assumptions C20_button_levels.

Theorem C20_other_buttons_only_request :
  forall d b, b <> 0 -> b <> 1 -> b <> 2 ->
    ipcr (mouse_down d b) = 0 /\ ipcr (mouse_up d b) = 0
    /\ inprt (mouse_down d b) = Z.lor (inprt d) 11 /\ inprt (mouse_up d b) = Z.lor (inprt d) 11
    /\ pa (mouse_down d b) = pa d /\ pb (mouse_down d b) = pb d /\ pa (mouse_up d b) = pa d /\ pb (mouse_up d b) = pb d.
Proof. exact other_buttons_only_request. Qed.
Print Assumptions C20_other_buttons_only_request.

Theorem C20_request_until_ipcr_read :
  forall o d, bset (ivec d) MOUSE_BLANK_INT = true ->
    (forall off, o = DRead off -> w8 off <> 19) ->
    bset (ivec (dstep o d)) MOUSE_BLANK_INT = true.
Proof. exact request_until_ipcr_read. Qed.
Print Assumptions C20_request_until_ipcr_read.

(* the button-event functions the theorems above speak about are Duart::mouse_down / Duart::mouse_up as they stand in
   /repo/src/duart.rs: Gen/GenMouse.v is their statement-by-statement translation, regenerated on every run *)
Theorem C20_button_events_are_source_functions :
  (forall d b, mouse_down d b = g_mouse_down d b) /\ (forall d b, mouse_up d b = g_mouse_up d b).
Proof.
  split; intros d b.
  - unfold mouse_down, g_mouse_down, isr_set, ivec_set, gd_ISTS_IPC, gd_MOUSE_BLANK_INT, ISTS_IPC, MOUSE_BLANK_INT. cbv zeta.
  destruct (b =? 0), (b =? 1), (b =? 2); reflexivity.
  - unfold mouse_up, g_mouse_up, isr_set, ivec_set, gd_ISTS_IPC, gd_MOUSE_BLANK_INT, ISTS_IPC, MOUSE_BLANK_INT. cbv zeta.
  destruct (b =? 0), (b =? 1), (b =? 2); reflexivity.
Qed.
Print Assumptions C20_button_events_are_source_functions.
