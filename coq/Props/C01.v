(* C01  Stock firmware boots and works as a terminal, end to end -- PARTIAL (evidence level "other").
   The universal claim is about 192 KiB of binary firmware without source; no theorem about the firmware is
   claimed.  What is proved here is about the device layer the firmware runs on, for ANY guest program:
   mouse events cannot touch anything the two guarantees depend on except through the interrupt request they
   raise.  The serial-path guarantees for any guest are C08 (keyboard / RS-232 receive: exactly once, in order, loss
   only flagged), C09 (transmit: exactly once, in order), C14 (status / interrupts truthful) and C17 (pacing).
   The firmware-dependent conjuncts are EVALUATED by running both images on the implementation under the virtual
   clock (and, in lock step, on the extracted model) on sampled configurations and schedules. *)
From Coq Require Import ZArith List Bool.
From Dmd Require Import Model.Bits Model.Types Model.Mem Model.Mouse Model.Duart Model.Bus.
From Dmd Require Import Proofs.SysProofs.
Open Scope Z_scope.

(* a pointer move changes the two mouse registers and nothing else in the machine's bus *)
Theorem C01_mouse_move_touches_only_mouse_registers :
  forall x y b,
    let b' := bus_mouse_move x y b in
    rom b' = rom b /\ duart_ b' = duart_ b /\ vid b' = vid b /\ bbram b' = bbram b /\ ram b' = ram b /\ dirty b' = dirty b
    /\ mouse_ b' = mkMouse (w16 x) (w16 y).
Proof.
  intros x y b. cbv zeta. repeat split.
Qed.
Print Assumptions C01_mouse_move_touches_only_mouse_registers.

(* a button event (any button number) leaves both serial channels -- queues, FIFOs, shift and holding registers,
   status, mode, pacing deadlines -- RAM, ROM, NVRAM, the display register and the dirty flag exactly as they
   were; only the input-port, input-port-change, interrupt-status and request registers move *)
Theorem C01_button_events_touch_only_input_port_and_request :
  forall bt b,
    (let b' := bus_mouse_down bt b in
     rom b' = rom b /\ mouse_ b' = mouse_ b /\ vid b' = vid b /\ bbram b' = bbram b /\ ram b' = ram b /\ dirty b' = dirty b
     /\ duart_rest (duart_ b') = duart_rest (duart_ b))
    /\ (let b' := bus_mouse_up bt b in
     rom b' = rom b /\ mouse_ b' = mouse_ b /\ vid b' = vid b /\ bbram b' = bbram b /\ ram b' = ram b /\ dirty b' = dirty b
     /\ duart_rest (duart_ b') = duart_rest (duart_ b)).
Proof.
  intros bt b.
  cbv zeta. unfold bus_mouse_down, bus_mouse_up, mouse_down, mouse_up, duart_rest.
  split; cbn [rom mouse_ vid bbram ram dirty duart_ with_duart];
    repeat match goal with |- context [if ?c then _ else _] => destruct c end; repeat split.
Qed.
Print Assumptions C01_button_events_touch_only_input_port_and_request.
