(* C12  Guest-controlled data can never crash the host.
   In the model every place where the Rust code can panic (index out of range, unwrap, unimplemented!, integer
   division, clone_from_slice length) is an explicit Panic outcome, every loop runs on explicit fuel with an
   OutOfFuel outcome, and everything else is a total Gallina function.  The theorems say that Panic / OutOfFuel are
   never produced.  That the model has ALL the panic sites of the code is validated by the catch_unwind differential
   runs (hostile streams), not proved; the last theorem ties the enumeration of those sites to a census of the source
   taken on every run. *)
From Coq Require Import ZArith List Bool Lia.
From Dmd Require Import Model.Bits Model.Types Model.Mem Model.Bus Model.Decode Model.Cpu.
From Dmd Require Import Proofs.MemProofs Proofs.BusProofs Proofs.VideoProofs Proofs.DecodeProofs Proofs.SafeBus Proofs.SafeCpu Proofs.SafeStep Proofs.LoopTerm.
Open Scope Z_scope.

(* every data access the host API or the CPU can request -- any address, any width, read or write -- returns a
   value or an error on a bus with the documented geometry; it never panics *)
Theorem C12_bus_access_never_panics :
  forall b a v, bus_wf b -> 0 <= a ->
    not_crash (bus_read_byte a b) /\ not_crash (bus_read_half a b) /\ not_crash (bus_read_word a b)
    /\ not_crash (bus_write_byte a v b) /\ not_crash (bus_write_half a v b) /\ not_crash (bus_write_word a v b).
Proof.
  intros b a v W Ha.
  exact (conj (bus_read_nocrash W1 b a W Ha) (conj (bus_read_nocrash W2 b a W Ha) (conj (bus_read_nocrash W4 b a W Ha)
        (conj (bus_write_nocrash W1 b a v W) (conj (bus_write_nocrash W2 b a v W) (bus_write_nocrash W4 b a v W)))))).
Qed.
Print Assumptions C12_bus_access_never_panics.

(* the decoder on ANY byte source whose fetches do not crash: an instruction of at most 26 bytes or an error;
   the 32-byte instruction buffer is never overrun and the prefix recursion is bounded *)
Theorem C12_decoder_never_panics :
  forall St f1 f2 f4 (I : St -> Prop),
    fetch_safe St I f1 -> fetch_safe St I f2 -> fetch_safe St I f4 ->
    (forall off s, I s -> 0 <= off -> match f1 off s with Ok v _ => 0 <= v < 256 | _ => True end) ->
    forall s, I s -> dec_good St I (decode_instruction St f1 f2 f4 s).
Proof. exact decode_instruction_good. Qed.
Print Assumptions C12_decoder_never_panics.

Theorem C12_decoder_never_panics_on_bytes :
  forall bs, bytes_ok bs ->
    match decode_bytes bs with Ok i _ => 1 <= ilen i <= 26 | Err _ _ => True | _ => False end.
Proof. exact decode_bytes_total. Qed.
Print Assumptions C12_decoder_never_panics_on_bytes.

(* the frame fetch never slices past RAM, whatever the guest wrote to the display-start register *)
Theorem C12_video_fetch_never_panics :
  forall b, bus_wf b -> vid_ok b ->
    bus_video_ram b = Ok (mem_slice (ram b) (video_start b) (Z.to_nat 102400)) (with_dirty b false).
Proof. exact frame_is_window. Qed.
Print Assumptions C12_video_fetch_never_panics.

(* THE step interface: from every well-formed machine state -- ANY register contents, ANY memory contents, ANY
   DUART / mouse state, at ANY time -- one instruction through step_with_error completes or returns an error
   value.  It never panics; the machine is well formed again afterwards (so the statement applies to the next
   step), and no ROM byte changes.  Well formed (mwf): the four memories have their documented geometry and hold
   byte values, the mouse coordinates are 16-bit, the 16 registers are 32-bit values -- which is what the Rust types
   (Vec<u8>, u16, u32) guarantee of every state the implementation can be in.
   OutOfFuel stands for "one of the three loops (MOVBLW, STREND, the block-move list of a context switch) ran for
   more than 1,048,600 iterations" or "the decoder recursed past its bound": neither can happen.  The loops read
   the bus at consecutive addresses from R0 and every mapped region (the largest is the 1 MiB of RAM) is followed by
   unmapped addresses, where the read reports a bus error and the loop ends (Proofs/LoopTerm.v) -- so every
   instruction is executed in a bounded number of iterations whatever the registers and memory hold. *)
Theorem C12_step_with_error_never_panics :
  forall now m, mwf m ->
    match step_with_error now m with
    | Ok _ m' | Err _ m' => mwf m' /\ rom (mbus m') = rom (mbus m)
    | Panic => False
    | OutOfFuel => False
    end.
Proof.
  intros now m W. pose proof (step_with_error_safe m now m (st_refl m W)) as K.
  destruct (step_with_error now m); cbn in K; auto; destruct K as [[? ?] ?] || destruct K; auto.
Qed.
Print Assumptions C12_step_with_error_never_panics.

(* any number of steps, continuing after every error *)
Theorem C12_no_step_of_any_run_panics :
  forall nows m, mwf m ->
    match run_steps_err nows m with
    | TGood m' => mwf m' /\ rom (mbus m') = rom (mbus m)
    | TFuel => False
    | TPanic => False
    end.
Proof.
  induction nows as [|now t IH]; intros m W; cbn [run_steps_err]; [auto|].
  pose proof (C12_step_with_error_never_panics now m W) as K.
  destruct (step_with_error now m) as [u m'|e m'| |]; auto; destruct K as [W' R'];
    pose proof (IH m' W') as K2; destruct (run_steps_err t m'); auto; destruct K2; split; auto; congruence.
Qed.
Print Assumptions C12_no_step_of_any_run_panics.

(* the power-on machine is well formed: the theorems apply to every state reachable from it by steps *)
Theorem C12_power_on_state_is_well_formed : forall now, mwf (mach_new now).
Proof.
  intros now. split; [apply bwf_new|]. unfold mach_new, regs_zero, regs_ok, W32. cbn. repeat split; lia.
Qed.
Print Assumptions C12_power_on_state_is_well_formed.

(* every dispatch arm, for every instruction the decoder can produce (32-bit constants) *)
Theorem C12_every_dispatch_arm_is_safe :
  forall ir m0 m, instr_ok ir -> st m0 m -> safe m0 (fun _ => True) (exec ir m).
Proof. intros ir m0 m I S. now apply exec_safe. Qed.
Print Assumptions C12_every_dispatch_arm_is_safe.

Theorem C12_interrupt_entry_is_safe :
  forall m0 v m, st m0 m -> 0 <= v -> safe m0 (fun _ => True) (on_interrupt v m).
Proof. intros. now apply safe_on_interrupt. Qed.
Print Assumptions C12_interrupt_entry_is_safe.

(* the data-driven loops end within the bound: a run of successful bus accesses at consecutive addresses
   (stride 1 to 4) from any 32-bit address is at most 1 MiB (+3) long, which is less than the iteration bound *)
Theorem C12_mapped_runs_are_short :
  forall d a b n, 1 <= d <= 4 -> 0 <= a < 4294967296 -> chain d a b n -> d * n <= 1048576 + 3.
Proof. exact chain_bound. Qed.
Print Assumptions C12_mapped_runs_are_short.

Theorem C12_loops_end_within_bound :
  forall m0 m, st m0 m ->
    safe m0 (fun _ => True) (movblw_loop m) /\ safe m0 (fun _ => True) (strend_loop m)
    /\ safe m0 (fun _ => True) (cs3_loop m).
Proof.
  intros m0 m S. split; [apply safe_movblw_loop; auto | split; [apply safe_strend_loop; auto | apply safe_cs3_loop; auto]].
Qed.
Print Assumptions C12_loops_end_within_bound.

(* the constructs of /repo/src that can panic in a release build -- unwrap / expect / panic! / unimplemented! /
   unreachable! / assert!, indexing and slicing, division and remainder -- counted per non-test function by the translator
   on every run (Gen/GenPanic.v), are exactly the ones Spec/PanicSites.v lists and explains the model's account of: a
   new potential panic site anywhere in the crate makes this theorem fail until it has been accounted for *)
From Dmd Require Import Gen.GenPanic Spec.PanicSites.
Theorem C12_panic_census_is_the_modelled_one :
  g_explicit_panics = pinned_explicit_panics /\ g_index_sites = pinned_index_sites
  /\ g_division_sites = pinned_division_sites.
Proof. repeat split; reflexivity. Qed.
Print Assumptions C12_panic_census_is_the_modelled_one.
