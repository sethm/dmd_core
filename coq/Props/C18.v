(* C18  Equivalent instruction forms produce identical machine state.
   strip r = the outcome of an instruction (final machine state: all registers incl. the full PSW, all memories and
   devices; or the error and the state it left) without the instruction's own length.  Two forms are equivalent
   when strip (exec form1 m) = strip (exec form2 m) for EVERY machine state m. *)
From Coq Require Import ZArith List Bool Lia.
From Dmd Require Import Model.Bits Model.Types Model.Mem Model.Bus Model.Decode Model.Cpu.
From Dmd Require Import Proofs.BitsLemmas Proofs.BusProofs Proofs.RegKit Proofs.MachKit Proofs.LinkageProofs
     Proofs.OperandProofs Proofs.Arms Proofs.FlagKit Proofs.AluFinal Proofs.EquivProofs.
Open Scope Z_scope.

(* two-operand form = three-operand form with the destination repeated: ADD SUB MUL DIV MOD AND OR XOR x W H B,
   every operand mode and type, every state, faults included *)
Theorem C18_two_operand_equals_three_operand :
  forall ir2 ir3 m p,
    In p op23_pairs -> iopcode ir2 = fst p -> iopcode ir3 = snd p -> dst_repeated ir2 ir3 ->
    strip (exec ir2 m) = strip (exec ir3 m).
Proof.
  intros ir2 ir3 m p.
  intros Hin H2 H3 [E0 [E1 E2]]. symmetry in E0, E1, E2.
  (* both forms run the same helper F, on operand 1 and on operand 2 *)
  assert (X : forall F : instr -> Z -> M Z, exec ir2 m = F ir2 1 m -> exec ir3 m = F ir3 2 m ->
              strip (F ir2 1 m) = strip (F ir3 2 m) -> strip (exec ir2 m) = strip (exec ir3 m))
    by (intros F -> ->; trivial).
  cbn [op23_pairs In] in Hin.
  repeat (destruct Hin as [Hin|Hin]; [subst p; cbn [fst snd] in H2, H3|]); try contradiction.
  1-3: apply (X add_arm); [apply exec_add; tauto | apply exec_add; tauto | now apply add_arm_ext].
  1-3: apply (X sub_arm); [apply exec_sub; tauto | apply exec_sub; tauto | now apply sub_arm_ext].
  1-3: apply (X (fun ir d => alu_std ir (fun a b => w32 (a * b)) d)); [apply exec_mul; tauto | apply exec_mul; tauto | now apply alu_std_ext].
  1: eapply (X (fun ir d => div_arm ir d _ _)); [now apply exec_divw | now apply exec_divw | now apply div_arm_ext].
  1: eapply (X (fun ir d => div_arm ir d _ _)); [now apply exec_divh | now apply exec_divh | now apply div_arm_ext].
  1: eapply (X (fun ir d => div_arm ir d _ _)); [now apply exec_divb | now apply exec_divb | now apply div_arm_ext].
  1-3: apply (X mod_arm); [apply exec_mod; tauto | apply exec_mod; tauto | now apply mod_arm_ext].
  1-3: apply (X (fun ir d => alu_std ir Z.land d)); [apply exec_and; tauto | apply exec_and; tauto | now apply alu_std_ext].
  1-3: apply (X (fun ir d => alu_std ir Z.lor d)); [apply exec_or; tauto | apply exec_or; tauto | now apply alu_std_ext].
  1-3: apply (X (fun ir d => alu_std ir Z.lxor d)); [apply exec_xor; tauto | apply exec_xor; tauto | now apply alu_std_ext].
Qed.
Print Assumptions C18_two_operand_equals_three_operand.

(* increment = add of one (all sizes; needs the overflow test to be symmetric in its addends) *)
Theorem C18_inc_equals_add_one :
  forall iri ira m,
    (iopcode iri = 144 /\ iopcode ira = 156) \/ (iopcode iri = 146 /\ iopcode ira = 158) \/ (iopcode iri = 147 /\ iopcode ira = 159) ->
    literal_one (get_op ira 0) -> get_op ira 1 = get_op iri 0 ->
    (forall a m1, read_op iri 0 m = Ok a m1 -> 0 <= a < 4294967296) ->
    strip (exec iri m) = strip (exec ira m).
Proof. exact inc_eq_add1. Qed.
Print Assumptions C18_inc_equals_add_one.

Theorem C18_dec_equals_sub_one :
  forall ird irs m,
    (iopcode ird = 148 /\ iopcode irs = 188) \/ (iopcode ird = 150 /\ iopcode irs = 190) \/ (iopcode ird = 151 /\ iopcode irs = 191) ->
    literal_one (get_op irs 0) -> get_op irs 1 = get_op ird 0 ->
    strip (exec ird m) = strip (exec irs m).
Proof. exact dec_eq_sub1. Qed.
Print Assumptions C18_dec_equals_sub_one.

Theorem C18_add_overflow_symmetric :
  forall a b k, 0 <= a < 4294967296 -> 0 <= b < 4294967296 -> 0 <= k < 32 ->
    Z.testbit (Z.land (Z.lxor a (not32 b)) (Z.lxor a (w32 (a + b)))) k
    = Z.testbit (Z.land (Z.lxor b (not32 a)) (Z.lxor b (w32 (b + a)))) k.
Proof. intros a b k _ _. apply add_overflow_symmetric. Qed.
Print Assumptions C18_add_overflow_symmetric.

(* test = compare with zero (word) *)
Theorem C18_tst_equals_cmp_zero :
  forall irt irc m,
    iopcode irt = 40 -> iopcode irc = 60 -> literal_zero (get_op irc 0) -> get_op irc 1 = get_op irt 0 ->
    (forall a m1, read_op irt 0 m = Ok a m1 -> 0 <= a) ->
    strip (exec irt m) = strip (exec irc m).
Proof.
  intros irt irc m.
  intros Ht Hc L0 E Hr. rewrite (exec_tstw irt m Ht), (exec_cmpw irc m Hc).
  rewrite (read_literal_zero irc 0 m L0). cbn [bind]. rewrite (read_op_ext irc irt 1 0 m E).
  destruct (read_op irt 0 m) as [a m1|e m1| |] eqn:R0; cbn [bind strip]; try reflexivity.
  replace (a <? 0) with false by (specialize (Hr _ _ eq_refl); lia).
  change (s32 0) with 0. now rewrite set_n_z_comm.
Qed.
Print Assumptions C18_tst_equals_cmp_zero.

(* clear = move of zero (all sizes) *)
Theorem C18_clr_equals_mov_zero :
  forall irc irm m,
    (iopcode irc = 128 /\ iopcode irm = 132) \/ (iopcode irc = 130 /\ iopcode irm = 134) \/ (iopcode irc = 131 /\ iopcode irm = 135) ->
    literal_zero (get_op irm 0) -> get_op irm 1 = get_op irc 0 -> otype (get_op irc 0) <> DNone ->
    strip (exec irc m) = strip (exec irm m).
Proof. exact clr_eq_mov0. Qed.
Print Assumptions C18_clr_equals_mov_zero.

(* complement = exclusive-or with all ones (all sizes) *)
Theorem C18_mcom_equals_xor_ones :
  forall irm irx m,
    (iopcode irm = 136 /\ iopcode irx = 244) \/ (iopcode irm = 138 /\ iopcode irx = 246) \/ (iopcode irm = 139 /\ iopcode irx = 247) ->
    literal_minus_one (get_op irx 0) -> get_op irx 1 = get_op irm 0 -> get_op irx 2 = get_op irm 1 ->
    (forall a m1, read_op irm 0 m = Ok a m1 -> 0 <= a < 4294967296) ->
    strip (exec irm m) = strip (exec irx m).
Proof. exact mcom_eq_xor_ones. Qed.
Print Assumptions C18_mcom_equals_xor_ones.

(* arithmetic and logical left shift agree (operand reads free of side effects: the two arms read their operands
   in opposite order) *)
Theorem C18_als_equals_lls :
  forall ira irl m cnt v,
    iopcode ira = 192 -> iopcode irl = 208 ->
    get_op irl 0 = get_op ira 0 -> get_op irl 1 = get_op ira 1 -> get_op irl 2 = get_op ira 2 ->
    read_op ira 0 m = Ok cnt m -> read_op ira 1 m = Ok v m ->
    strip (exec ira m) = strip (exec irl m).
Proof. exact als_eq_lls. Qed.
Print Assumptions C18_als_equals_lls.

(* an instruction's effect depends on the instruction register only through the operand slots it names: the
   basis of "register operands = memory operands holding the same values" and of position independence *)
Theorem C18_operand_access_depends_on_slot_only :
  forall ir ir' k k' v m, get_op ir k = get_op ir' k' ->
    read_op ir k m = read_op ir' k' m /\ write_op ir k v m = write_op ir' k' v m
    /\ effective_address ir k m = effective_address ir' k' m.
Proof.
  intros ir ir' k k' v m H. split; [now apply read_op_ext | split; [now apply write_op_ext|]].
  now rewrite (effective_address_slot ir), (effective_address_slot ir'), H.
Qed.
Print Assumptions C18_operand_access_depends_on_slot_only.

(* BIT sets the N and Z that AND of the same operands sets, clears C like it, and writes no register *)
Theorem C18_bit_equals_and_flags :
  forall irb ira m a b r,
    (iopcode irb = 56 \/ iopcode irb = 58 \/ iopcode irb = 59) ->
    (iopcode ira = 248 \/ iopcode ira = 250 \/ iopcode ira = 251) ->
    read_op irb 0 m = Ok a m -> read_op irb 1 m = Ok b m -> read_op ira 0 m = Ok a m -> read_op ira 1 m = Ok b m ->
    omode (get_op ira 2) = MRegister -> oreg (get_op ira 2) = Some r -> 0 <= r <= 10 ->
    otype (op1 irb) = otype (get_op ira 2) -> otype (get_op ira 2) <> DNone ->
    exists mb ma, exec irb m = Ok (ilen irb) mb /\ exec ira m = Ok (ilen ira) ma
      /\ flag F_N mb = flag F_N ma /\ flag F_Z mb = flag F_Z ma /\ flag F_C mb = false /\ flag F_C ma = false
      /\ (forall i, 0 <= i <= 15 -> i <> 11 -> R mb i = R m i).
Proof. exact bit_and_same_nz. Qed.
Print Assumptions C18_bit_equals_and_flags.

(* PUSHW src ; POPW %rd  =  MOVW src,%rd  (register, condition codes, stack pointer, memory outside the dead word) *)
Theorem C18_push_pop_equals_mov :
  forall irp irq irm m v rd,
    iopcode irp = 160 -> iopcode irq = 32 -> iopcode irm = 132 ->
    bus_wf (mbus m) -> in_ram_w (R m R_SP) -> R m R_SP + 4 < 4294967296 ->
    read_op irp 0 m = Ok v m -> read_op irm 0 m = Ok v m -> 0 <= v < 4294967296 ->
    omode (op0 irq) = MRegister -> oreg (op0 irq) = Some rd -> otype (op0 irq) = DWord ->
    omode (op1 irm) = MRegister -> oreg (op1 irm) = Some rd -> otype (op1 irm) = DWord ->
    0 <= rd <= 10 ->
    exists m1 m2 mm,
      exec irp m = Ok (ilen irp) m1 /\ exec irq m1 = Ok (ilen irq) m2 /\ exec irm m = Ok (ilen irm) mm
      /\ (forall i, 0 <= i <= 15 -> i <> 11 -> R m2 i = R mm i)
      /\ flag F_N m2 = flag F_N mm /\ flag F_Z m2 = flag F_Z mm /\ flag F_C m2 = flag F_C mm /\ flag F_V m2 = flag F_V mm
      /\ (forall a, RAMB <= a -> (a < R m R_SP \/ R m R_SP + 4 <= a) -> ramb m2 a = ramb mm a).
Proof.
  intros irp irq irm m v rd.
  intros Hp Hq Hmv W Hs Hlt Rp Rm Hv Qm Qr Qt Mm Mr Mt Hrd.
  pose proof Hs as [Hs1 [Hs2 Hs3]].
  set (m1 := nz_clear_cv v (op0 irp) (pushed m v)).
  assert (Sp1 : R m1 R_SP = R m R_SP + 4).
  { unfold m1. rewrite R_nz_clear_cv, R_pushed_sp by (unfold R_SP; lia). apply add32_small. unfold RAMB in *; lia. }
  assert (W1 : bus_wf (mbus m1)) by (unfold m1; rewrite mbus_nz_clear_cv; now apply wf_pushed).
  assert (L1 : ldw m1 (R m1 R_SP - 4) = v).
  { rewrite Sp1. replace (R m R_SP + 4 - 4) with (R m R_SP) by lia. unfold m1.
    rewrite ldw_nz_clear_cv, ldw_pushed_top by lia. now apply w32_id. }
  exists m1. eexists. eexists.
  split; [apply pushw_effect; assumption|].
  split.
  { apply (popw_effect_reg irq m1 rd); auto.
    - rewrite Sp1. replace (R m R_SP + 4 - 4) with (R m R_SP) by lia. exact Hs.
    - rewrite Sp1. unfold RAMB in *. lia. }
  split.
  { rewrite exec_movx by tauto. unfold unary_arm. rewrite Rm. cbn [bind].
    rewrite (write_register irm 1 v m rd Mm Mr). reflexivity. }
  (* both final states are the same four condition-code updates on top of a state with v in rd *)
  rewrite L1. unfold nz_clear_cv. change (get_op irm 1) with (op1 irm).
  rewrite (set_v_flag_op_sized v (op1 irm)), !set_nz_flags_sized, Qt, Mt by (rewrite ?Qt, ?Mt; discriminate).
  cbn [too_big].
  match goal with |- context [set_n _ ?x] => set (x2 := x) end.
  destruct (cc_outcome x2 (Z.testbit v (sign_bit DWord)) (trunc_to DWord v =? 0) false false)
    as (Fz & Fn & Fc & Fv & Ro & Eb).
  destruct (cc_outcome (setR m rd v) (Z.testbit v (sign_bit DWord)) (trunc_to DWord v =? 0) false false)
    as (Fz' & Fn' & Fc' & Fv' & Ro' & Eb').
  split.
  { intros i Hi Ni. rewrite Ro, Ro' by assumption. unfold x2, R_SP in *.
    destruct (Z.eq_dec i 12) as [->|Ns]; [|destruct (Z.eq_dec i rd) as [->|Nr]].
    - rewrite R_setR_same, !R_setR_other, Sp1 by lia. rewrite sub32_small; unfold RAMB in *; lia.
    - rewrite R_setR_other, !R_setR_same by lia. reflexivity.
    - rewrite !R_setR_other by lia. unfold m1. rewrite R_nz_clear_cv by lia. apply R_pushed_other; lia. }
  rewrite Fz, Fn, Fc, Fv, Fz', Fn', Fc', Fv'. repeat split.
  intros a Ha Hd. unfold ramb. rewrite Eb, Eb'. change (ramb m1 a = ramb m a). unfold m1.
  rewrite ramb_nz_clear_cv. apply ramb_pushed_other; lia.
Qed.
Print Assumptions C18_push_pop_equals_mov.
