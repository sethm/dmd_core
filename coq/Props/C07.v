(* C07  Interrupts are masked by priority and transparent to the interrupted code. *)
From Coq Require Import ZArith List Bool.
From Dmd Require Import Model.Bits Model.Types Model.Mem Model.Duart Model.Bus Model.Decode Model.Cpu.
From Dmd Require Import Gen.GenConsts Proofs.BitsLemmas Proofs.BusProofs Proofs.MachKit Proofs.InterruptProofs.
Open Scope Z_scope.

(* one step = service the devices, poll the request ONCE before the instruction is decoded (an interrupt is only
   ever taken at an instruction boundary), take it exactly when the processor level is below the request's level,
   then decode and execute *)
Theorem C07_delivery_only_at_boundary_and_below_level :
  forall now m,
    dispatch now m =
    let b := bus_service now (mbus m) in
    let (o, b) := bus_get_interrupts now b in
    let m := with_bus m b in
    bind (match o with
          | Some val => if cpu_ipl m <? irq_level val then on_interrupt (Z.land (not8 val) 63) m else Ok tt m
          | None => Ok tt m
          end) (fun _ m => bind (decode m) (fun ir m => exec ir m)).
Proof. reflexivity. Qed.
Print Assumptions C07_delivery_only_at_boundary_and_below_level.

(* the level table in the source (translated on every run) is the documented one: no source bit -> never;
   only the low three request bits -> level 14; any of bits 3-5 -> level 15 *)
Theorem C07_priority_levels :
  IPL_TABLE = g_IPL_TABLE
  /\ forall v, 0 <= v < 256 -> irq_level v = if v mod 64 =? 0 then 0 else if v mod 64 <? 8 then 14 else 15.
Proof. split; [reflexivity | exact irq_level_spec]. Qed.
Print Assumptions C07_priority_levels.

Theorem C07_masked_request_not_delivered :
  forall now m o b,
    bus_get_interrupts now (bus_service now (mbus m)) = (o, b) ->
    (match o with Some val => irq_level val <= cpu_ipl (with_bus m b) | None => True end) ->
    dispatch now m = bind (decode (with_bus m b)) (fun ir m => exec ir m).
Proof.
  intros now m o b E H. rewrite C07_delivery_only_at_boundary_and_below_level. cbv zeta. rewrite E.
  destruct o as [val|]; cbn [bind]; [|reflexivity].
  apply Z.ltb_ge in H. now rewrite H.
Qed.
Print Assumptions C07_masked_request_not_delivered.

Theorem C07_unmasked_request_delivered :
  forall now m val b,
    bus_get_interrupts now (bus_service now (mbus m)) = (Some val, b) ->
    cpu_ipl (with_bus m b) < irq_level val ->
    dispatch now m = bind (on_interrupt (Z.land (not8 val) 63) (with_bus m b))
                          (fun _ m => bind (decode m) (fun ir m => exec ir m)).
Proof. intros now m val b E H. rewrite C07_delivery_only_at_boundary_and_below_level. cbv zeta. rewrite E. apply Z.ltb_lt in H. now rewrite H. Qed.
Print Assumptions C07_unmasked_request_delivered.

(* delivery: old control-block pointer stacked on the interrupt stack (ISP + 4); PC, PSW and SP stored in the old
   control block at +4, +0, +8; PCBP, PSW, PC, SP loaded from the block the vector table names; r0-r10 untouched;
   nothing else in RAM written.  (Handler block without the R and I flags.) *)
Theorem C07_interrupt_entry :
  forall v m,
    bus_wf (mbus m) -> 0 <= v -> in_rom_w (140 + 4 * v) ->
    let N := romw m (140 + 4 * v) in
    let P := R m R_PCBP in
    let S := R m R_ISP in
    in_ram_w N -> in_ram_w (N + 4) -> in_ram_w (N + 8) ->
    in_ram_w P -> in_ram_w (P + 4) -> in_ram_w (P + 8) -> in_ram_w S -> S + 4 < 4294967296 ->
    (P + 12 <= N \/ N + 12 <= P) -> (S + 4 <= P \/ P + 12 <= S) -> (S + 4 <= N \/ N + 12 <= S) ->
    let H := ldw m N in
    Z.testbit H 8 = false -> Z.testbit H 7 = false ->
    exists m1, on_interrupt v m = Ok tt m1
      /\ bus_wf (mbus m1)
      /\ R m1 R_ISP = S + 4 /\ R m1 R_PCBP = N /\ PSW m1 = handler_psw H
      /\ R m1 R_PC = ldw m (N + 4) /\ R m1 R_SP = ldw m (N + 8)
      /\ (forall i, 0 <= i <= 10 -> R m1 i = R m i)
      /\ ldw m1 S = w32 P /\ ldw m1 P = w32 (saved_psw (PSW m) H)
      /\ ldw m1 (P + 4) = w32 (R m R_PC) /\ ldw m1 (P + 8) = w32 (R m R_SP)
      /\ (forall a, RAMB <= a -> (a < S \/ S + 4 <= a) -> (a < P \/ P + 12 <= a) -> ramb m1 a = ramb m a).
Proof. exact on_interrupt_effect. Qed.
Print Assumptions C07_interrupt_entry.

(* RETPS from kernel level: pops the control-block pointer, reloads PCBP, PSW, PC, SP from that block *)
Theorem C07_retps_effect :
  forall ir m,
    iopcode ir = 12488 -> is_kernel m = true -> bus_wf (mbus m) ->
    4 <= R m R_ISP < 4294967296 -> in_ram_w (R m R_ISP - 4) ->
    let P := ldw m (R m R_ISP - 4) in
    in_ram_w P -> in_ram_w (P + 4) -> in_ram_w (P + 8) ->
    let Q := ldw m P in
    Z.testbit Q 8 = false -> Z.testbit Q 7 = false ->
    exists m', exec ir m = Ok 0 m' /\ mbus m' = mbus m
      /\ R m' R_ISP = R m R_ISP - 4 /\ R m' R_PCBP = P /\ PSW m' = clr32 Q F_TM
      /\ R m' R_PC = ldw m (P + 4) /\ R m' R_SP = ldw m (P + 8)
      /\ (forall i, 0 <= i <= 10 -> R m' i = R m i).
Proof.
  intros ir m Ho K W _ Hs P P0 _ P8 Q QR QI.
  destruct (retps_effect_gen false ir m Ho K W Hs QR QI) as (m' & E & B & K'); auto using blk_words3.
  exists m'. split; [exact E|]. split; [exact B|]. exact K'.
Qed.
Print Assumptions C07_retps_effect.

(* transparency: interrupt, then the handler's RETPS -- PC, SP, r0-r10 (incl. FP, AP), PCBP, ISP, condition codes
   (21-18), priority level (16-13), execution / previous level (12-9) and the I bit are exactly as before, and
   only the old control block and the interrupt-stack slot were written *)
Theorem C07_interrupt_retps_transparent :
  forall ir v m,
    iopcode ir = 12488 ->
    bus_wf (mbus m) -> 0 <= v -> in_rom_w (140 + 4 * v) ->
    let N := romw m (140 + 4 * v) in
    let P := R m R_PCBP in
    let S := R m R_ISP in
    in_ram_w N -> in_ram_w (N + 4) -> in_ram_w (N + 8) ->
    in_ram_w P -> in_ram_w (P + 4) -> in_ram_w (P + 8) -> in_ram_w S -> S + 4 < 4294967296 ->
    (P + 12 <= N \/ N + 12 <= P) -> (S + 4 <= P \/ P + 12 <= S) -> (S + 4 <= N \/ N + 12 <= S) ->
    let H := ldw m N in
    0 <= H -> Z.testbit H 8 = false -> Z.testbit H 7 = false -> Z.testbit H 11 = false -> Z.testbit H 12 = false ->
    Z.testbit (PSW m) 7 = false ->
    0 <= R m R_PC < 4294967296 -> 0 <= R m R_SP < 4294967296 ->
    exists m1 m2,
      on_interrupt v m = Ok tt m1 /\ exec ir m1 = Ok 0 m2
      /\ R m2 R_PC = R m R_PC /\ R m2 R_SP = R m R_SP /\ R m2 R_PCBP = P /\ R m2 R_ISP = S
      /\ (forall i, 0 <= i <= 10 -> R m2 i = R m i)
      /\ (forall k, In k [21; 20; 19; 18; 16; 15; 14; 13; 12; 11; 10; 9; 7] -> Z.testbit (PSW m2) k = Z.testbit (PSW m) k)
      /\ (forall a, RAMB <= a -> (a < S \/ S + 4 <= a) -> (a < P \/ P + 12 <= a) -> ramb m2 a = ramb m a).
Proof. exact interrupt_retps_transparent. Qed.
Print Assumptions C07_interrupt_retps_transparent.

(* process-switch and MMU-control instructions outside kernel level: refused, nothing changes *)
Theorem C07_privileged_refused :
  forall ir m, is_kernel m = false ->
    (iopcode ir = 12460 \/ iopcode ir = 12488 \/ iopcode ir = 12301 \/ iopcode ir = 12307) ->
    exec ir m = Err (EExc PrivilegedOpcode) m.
Proof. intros ir m K [H|[H|[H|H]]]; unfold exec; rewrite H; cbn; rewrite K; reflexivity. Qed.
Print Assumptions C07_privileged_refused.

Theorem C07_kernel_level_is_cm_zero :
  forall m, 0 <= PSW m -> is_kernel m = negb (Z.testbit (PSW m) 11) && negb (Z.testbit (PSW m) 12).
Proof. intros m _. apply is_kernel_bits. Qed.
Print Assumptions C07_kernel_level_is_cm_zero.

(* the same for a handler control block WITH the I flag (initial context: PCBP moves 12 bytes on, I is cleared in
   the handler's PSW): delivery + RETPS is transparent to the interrupted program *)
Theorem C07_interrupt_retps_transparent_I_block :
  forall ir v m,
    iopcode ir = 12488 ->
    bus_wf (mbus m) -> 0 <= v -> in_rom_w (140 + 4 * v) ->
    let N := romw m (140 + 4 * v) in
    let P := R m R_PCBP in
    let S := R m R_ISP in
    in_ram_w N -> in_ram_w (N + 4) -> in_ram_w (N + 8) ->
    in_ram_w P -> in_ram_w (P + 4) -> in_ram_w (P + 8) -> in_ram_w S -> S + 4 < 4294967296 ->
    (P + 12 <= N \/ N + 12 <= P) -> (S + 4 <= P \/ P + 12 <= S) -> (S + 4 <= N \/ N + 12 <= S) ->
    let H := ldw m N in
    0 <= H -> Z.testbit H 8 = false -> Z.testbit H 7 = true -> Z.testbit H 11 = false -> Z.testbit H 12 = false ->
    Z.testbit (PSW m) 7 = false ->
    0 <= R m R_PC < 4294967296 -> 0 <= R m R_SP < 4294967296 ->
    exists m1 m2,
      on_interrupt v m = Ok tt m1 /\ R m1 R_PCBP = N + 12 /\ exec ir m1 = Ok 0 m2
      /\ R m2 R_PC = R m R_PC /\ R m2 R_SP = R m R_SP /\ R m2 R_PCBP = P /\ R m2 R_ISP = S
      /\ (forall i, 0 <= i <= 10 -> R m2 i = R m i)
      /\ (forall k, In k [21; 20; 19; 18; 16; 15; 14; 13; 12; 11; 10; 9; 7] -> Z.testbit (PSW m2) k = Z.testbit (PSW m) k)
      /\ (forall a, RAMB <= a -> (a < S \/ S + 4 <= a) -> (a < P \/ P + 12 <= a) -> ramb m2 a = ramb m a).
Proof.
  intros ir v m Ho W _ Hrom N P S N0 _ N8 P0 _ P8 HS _ D1 D2 D3 H _ HR HI H11 H12 PI Hpc Hsp.
  destruct (entry_retps_transparent false true ir N m Ho W HR HI H11 H12 PI)
    as (m1 & m2 & E1 & Pcb1 & E2 & Pc & Sp & Pcb & Isp & Rg & Bits & Fr); auto using blk_words3.
  exists m1, m2. rewrite on_interrupt_entry by assumption. rewrite w32_id in Pc, Sp by assumption.
  repeat split; assumption.
Qed.
Print Assumptions C07_interrupt_retps_transparent_I_block.

From Dmd Require Import Proofs.InterruptProofsI.

(* CALLPS followed by RETPS: the caller continues after the CALLPS with everything else as it was *)
Theorem C07_callps_retps_transparent :
  forall irc irr m,
    iopcode irc = 12460 -> iopcode irr = 12488 -> is_kernel m = true ->
    bus_wf (mbus m) ->
    let N := R m 0 in
    let P := R m R_PCBP in
    let S := R m R_ISP in
    in_ram_w N -> in_ram_w (N + 4) -> in_ram_w (N + 8) ->
    in_ram_w P -> in_ram_w (P + 4) -> in_ram_w (P + 8) -> in_ram_w S -> S + 4 < 4294967296 ->
    (P + 12 <= N \/ N + 12 <= P) -> (S + 4 <= P \/ P + 12 <= S) -> (S + 4 <= N \/ N + 12 <= S) ->
    let H := ldw m N in
    0 <= H -> Z.testbit H 8 = false -> Z.testbit H 7 = false -> Z.testbit H 11 = false -> Z.testbit H 12 = false ->
    Z.testbit (PSW m) 7 = false ->
    0 <= R m R_SP < 4294967296 ->
    exists m1 m2,
      exec irc m = Ok 0 m1 /\ exec irr m1 = Ok 0 m2
      /\ R m2 R_PC = add32 (R m R_PC) 2 /\ R m2 R_SP = R m R_SP /\ R m2 R_PCBP = P /\ R m2 R_ISP = S
      /\ (forall i, 0 <= i <= 10 -> R m2 i = R m i)
      /\ (forall k, In k [21; 20; 19; 18; 16; 15; 14; 13; 12; 11; 10; 9; 7] -> Z.testbit (PSW m2) k = Z.testbit (PSW m) k)
      /\ (forall a, RAMB <= a -> (a < S \/ S + 4 <= a) -> (a < P \/ P + 12 <= a) -> ramb m2 a = ramb m a).
Proof. exact callps_retps_transparent. Qed.
Print Assumptions C07_callps_retps_transparent.

(* the same through a handler control block WITH the R flag (register save area): interrupt entry saves AP, FP and
   r0-r8 in the interrupted process's control block and uses r0-r2 and FP as scratch, RETPS reloads them; the
   block-move lists of both blocks are empty (lists with entries: correspondence + mon_c07).  Registers hold 32-bit
   values.  The R bit of the PSW itself is not claimed (it is set from the handler block's PSW). *)
From Dmd Require Import Proofs.InterruptProofsR.
Theorem C07_interrupt_retps_transparent_R_block :
  forall ir v m,
    iopcode ir = 12488 ->
    bus_wf (mbus m) -> 0 <= v -> in_rom_w (140 + 4 * v) ->
    let N := romw m (140 + 4 * v) in
    let P := R m R_PCBP in
    let S := R m R_ISP in
    pcb_in_ram N -> in_ram_w (N + 64) -> ldw m (N + 64) = 0 ->
    pcb_in_ram P -> in_ram_w (P + 64) -> ldw m (P + 64) = 0 ->
    in_ram_w S -> S + 4 < 4294967296 ->
    (P + 68 <= N \/ N + 68 <= P) -> (S + 4 <= P \/ P + 68 <= S) -> (S + 4 <= N \/ N + 68 <= S) ->
    let H := ldw m N in
    0 <= H -> Z.testbit H 8 = true -> Z.testbit H 7 = false -> Z.testbit H 11 = false -> Z.testbit H 12 = false ->
    Z.testbit (PSW m) 7 = false ->
    (forall i, 0 <= i <= 15 -> 0 <= R m i < 4294967296) ->
    exists m1 m2,
      on_interrupt v m = Ok tt m1 /\ exec ir m1 = Ok 0 m2
      /\ R m2 R_PC = R m R_PC /\ R m2 R_SP = R m R_SP /\ R m2 R_PCBP = P /\ R m2 R_ISP = S
      /\ (forall i, 0 <= i <= 10 -> R m2 i = R m i)
      /\ (forall k, In k [21; 20; 19; 18; 16; 15; 14; 13; 12; 11; 10; 9; 7] -> Z.testbit (PSW m2) k = Z.testbit (PSW m) k)
      /\ (forall a, RAMB <= a -> (a < S \/ S + 4 <= a) -> (a < P \/ P + 64 <= a) -> ramb m2 a = ramb m a).
Proof. exact interrupt_retps_transparent_R. Qed.
Print Assumptions C07_interrupt_retps_transparent_R_block.

(* what entry through an R block stores, and what RETPS through an R block loads *)
Theorem C07_R_block_save_and_restore :
  (forall v m N P S H,
     bus_wf (mbus m) -> 0 <= v -> in_rom_w (140 + 4 * v) ->
     romw m (140 + 4 * v) = N -> R m R_PCBP = P -> R m R_ISP = S -> ldw m N = H ->
     pcb_in_ram N -> in_ram_w (N + 64) -> ldw m (N + 64) = 0 ->
     pcb_in_ram P -> in_ram_w S -> S + 4 < 4294967296 ->
     (P + 64 <= N \/ N + 68 <= P) -> (S + 4 <= P \/ P + 64 <= S) -> (S + 4 <= N \/ N + 68 <= S) ->
     Z.testbit H 8 = true -> Z.testbit H 7 = false ->
     exists m1, on_interrupt v m = Ok tt m1
       /\ bus_wf (mbus m1)
       /\ R m1 R_ISP = S + 4 /\ R m1 R_PCBP = N /\ PSW m1 = handler_psw H
       /\ R m1 R_PC = ldw m (N + 4) /\ R m1 R_SP = ldw m (N + 8)
       /\ ldw m1 S = w32 P /\ ldw m1 P = w32 (saved_psw (PSW m) H)
       /\ ldw m1 (P + 4) = w32 (R m R_PC) /\ ldw m1 (P + 8) = w32 (R m R_SP)
       /\ ldw m1 (P + 20) = w32 (R m R_AP) /\ ldw m1 (P + 24) = w32 (R m R_FP)
       /\ (forall k, 0 <= k <= 8 -> ldw m1 (P + 28 + 4 * k) = w32 (R m k))
       /\ (forall a, RAMB <= a -> (a < S \/ S + 4 <= a) -> (a < P \/ P + 64 <= a) -> ramb m1 a = ramb m a))
  /\ (forall ir m,
        iopcode ir = 12488 -> is_kernel m = true -> bus_wf (mbus m) ->
        4 <= R m R_ISP < 4294967296 -> in_ram_w (R m R_ISP - 4) ->
        let P := ldw m (R m R_ISP - 4) in
        pcb_in_ram P -> in_ram_w (P + 64) -> ldw m (P + 64) = 0 ->
        let Q := ldw m P in
        Z.testbit Q 8 = true -> Z.testbit Q 7 = false ->
        exists m', exec ir m = Ok 0 m' /\ mbus m' = mbus m
          /\ R m' R_ISP = R m R_ISP - 4 /\ R m' R_PCBP = P /\ PSW m' = clr32 Q F_TM
          /\ R m' R_PC = ldw m (P + 4) /\ R m' R_SP = ldw m (P + 8)
          /\ R m' R_FP = ldw m (P + 24) /\ R m' R_AP = ldw m (P + 20)
          /\ (forall k, 0 <= k <= 8 -> R m' k = ldw m (P + 28 + 4 * k))).
Proof. split; [exact on_interrupt_effect_gen_R | exact retps_effect_R]. Qed.
Print Assumptions C07_R_block_save_and_restore.

(* ... and with R and I together (the handler runs with PCBP 12 bytes on; the empty block-move list is the one 64 bytes
   behind the moved pointer) *)
Theorem C07_interrupt_retps_transparent_RI_block :
  forall ir v m,
    iopcode ir = 12488 ->
    bus_wf (mbus m) -> 0 <= v -> in_rom_w (140 + 4 * v) ->
    let N := romw m (140 + 4 * v) in
    let P := R m R_PCBP in
    let S := R m R_ISP in
    pcb_in_ram N -> in_ram_w (N + 76) -> ldw m (N + 76) = 0 ->
    pcb_in_ram P -> in_ram_w (P + 64) -> ldw m (P + 64) = 0 ->
    in_ram_w S -> S + 4 < 4294967296 ->
    (P + 68 <= N \/ N + 80 <= P) -> (S + 4 <= P \/ P + 68 <= S) -> (S + 4 <= N \/ N + 80 <= S) ->
    let H := ldw m N in
    0 <= H -> Z.testbit H 8 = true -> Z.testbit H 7 = true -> Z.testbit H 11 = false -> Z.testbit H 12 = false ->
    Z.testbit (PSW m) 7 = false ->
    (forall i, 0 <= i <= 15 -> 0 <= R m i < 4294967296) ->
    exists m1 m2,
      on_interrupt v m = Ok tt m1 /\ R m1 R_PCBP = N + 12 /\ exec ir m1 = Ok 0 m2
      /\ R m2 R_PC = R m R_PC /\ R m2 R_SP = R m R_SP /\ R m2 R_PCBP = P /\ R m2 R_ISP = S
      /\ (forall i, 0 <= i <= 10 -> R m2 i = R m i)
      /\ (forall k, In k [21; 20; 19; 18; 16; 15; 14; 13; 12; 11; 10; 9; 7] -> Z.testbit (PSW m2) k = Z.testbit (PSW m) k)
      /\ (forall a, RAMB <= a -> (a < S \/ S + 4 <= a) -> (a < P \/ P + 64 <= a) -> ramb m2 a = ramb m a).
Proof. exact interrupt_retps_transparent_RI. Qed.
Print Assumptions C07_interrupt_retps_transparent_RI_block.

(* CALLPS into a control block with the R flag (kernel level, no I, empty block-move lists) whose code returns at
   once with RETPS: the caller continues after the CALLPS with everything else as it was *)
Theorem C07_callps_retps_transparent_R_block :
  forall irc irr m,
    iopcode irc = 12460 -> iopcode irr = 12488 -> is_kernel m = true ->
    bus_wf (mbus m) ->
    let N := R m 0 in
    let P := R m R_PCBP in
    let S := R m R_ISP in
    pcb_in_ram N -> in_ram_w (N + 64) -> ldw m (N + 64) = 0 ->
    pcb_in_ram P -> in_ram_w (P + 64) -> ldw m (P + 64) = 0 ->
    in_ram_w S -> S + 4 < 4294967296 ->
    (P + 68 <= N \/ N + 68 <= P) -> (S + 4 <= P \/ P + 68 <= S) -> (S + 4 <= N \/ N + 68 <= S) ->
    let H := ldw m N in
    0 <= H -> Z.testbit H 8 = true -> Z.testbit H 7 = false -> Z.testbit H 11 = false -> Z.testbit H 12 = false ->
    Z.testbit (PSW m) 7 = false ->
    (forall i, 0 <= i <= 15 -> 0 <= R m i < 4294967296) ->
    exists m1 m2,
      exec irc m = Ok 0 m1 /\ exec irr m1 = Ok 0 m2
      /\ R m2 R_PC = add32 (R m R_PC) 2 /\ R m2 R_SP = R m R_SP /\ R m2 R_PCBP = P /\ R m2 R_ISP = S
      /\ (forall i, 0 <= i <= 10 -> R m2 i = R m i)
      /\ (forall k, In k [21; 20; 19; 18; 16; 15; 14; 13; 12; 11; 10; 9; 7] -> Z.testbit (PSW m2) k = Z.testbit (PSW m) k)
      /\ (forall a, RAMB <= a -> (a < S \/ S + 4 <= a) -> (a < P \/ P + 64 <= a) -> ramb m2 a = ramb m a).
Proof. exact callps_retps_transparent_R. Qed.
Print Assumptions C07_callps_retps_transparent_R_block.

(* the hypotheses of the R-block theorems are satisfiable: a concrete machine (vector 1 -> handler block at 0x748000 with
   R set and priority level 15, interrupted process's block at 0x740000, interrupt stack at 0x741000) meets all of them *)
Example C07_R_block_premises_satisfiable :
  let m := ex_m in let v := 1 in
  bus_wf (mbus m) /\ 0 <= v /\ in_rom_w (140 + 4 * v)
  /\ (let N := romw m (140 + 4 * v) in
      let P := R m R_PCBP in
      let S := R m R_ISP in
      pcb_in_ram N /\ in_ram_w (N + 64) /\ ldw m (N + 64) = 0
      /\ pcb_in_ram P /\ in_ram_w (P + 64) /\ ldw m (P + 64) = 0
      /\ in_ram_w S /\ S + 4 < 4294967296
      /\ (P + 68 <= N \/ N + 68 <= P) /\ (S + 4 <= P \/ P + 68 <= S) /\ (S + 4 <= N \/ N + 68 <= S)
      /\ (let H := ldw m N in
          0 <= H /\ Z.testbit H 8 = true /\ Z.testbit H 7 = false /\ Z.testbit H 11 = false /\ Z.testbit H 12 = false))
  /\ Z.testbit (PSW m) 7 = false
  /\ (forall i, 0 <= i <= 15 -> 0 <= R m i < 4294967296).
Proof. exact R_block_premises. Qed.
