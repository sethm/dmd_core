(* C10  Every address reaches exactly its device, or faults. *)
From Coq Require Import ZArith List.
From Dmd Require Import Model.Bits Model.Mem Model.Bus Gen.GenMemMap Spec.MemMapDoc Proofs.MemProofs Proofs.BusProofs.
Open Scope Z_scope.

(* routing as translated from Bus::get_device = the documented map, for every address (all 2^32 and beyond) *)
Theorem C10_source_route_is_documented_map :
  forall a, 0 <= a -> option_map gdev_doc (g_get_device a) = doc_route a.
Proof.
  intros a H. unfold g_get_device, doc_route, doc_map, find; cbn [fst snd].
  rewrite !(leb_ltb_succ a), (proj2 (Z.leb_le 0 a) H); cbn [Z.add Pos.add Pos.succ andb].
  repeat case_if; reflexivity.
Qed.
Print Assumptions C10_source_route_is_documented_map.

(* the model routes identically *)
Theorem C10_model_route_is_documented_map :
  forall a, 0 <= a -> option_map dev_doc (get_device a) = doc_route a.
Proof.
  intros a H. unfold get_device, doc_route, doc_map, find; cbn [fst snd].
  rewrite !(leb_ltb_succ a), (proj2 (Z.leb_le 0 a) H); cbn [Z.add Pos.add Pos.succ andb].
  repeat case_if; reflexivity.
Qed.
Print Assumptions C10_model_route_is_documented_map.

(* outside the map: NoDevice (or the alignment fault that precedes routing), nothing changes *)
Theorem C10_no_device_no_effect :
  forall a v b, get_device a = None ->
    bus_read_byte a b = Err (EBus BNoDevice) b
    /\ (bus_read_half a b = Err (EBus BNoDevice) b \/ bus_read_half a b = Err (EBus BAlignment) b)
    /\ (bus_read_word a b = Err (EBus BNoDevice) b \/ bus_read_word a b = Err (EBus BAlignment) b)
    /\ bus_write_byte a v b = Err (EBus BNoDevice) b
    /\ (bus_write_half a v b = Err (EBus BNoDevice) b \/ bus_write_half a v b = Err (EBus BAlignment) b)
    /\ (bus_write_word a v b = Err (EBus BNoDevice) b \/ bus_write_word a v b = Err (EBus BAlignment) b).
Proof.
  intros a v b H. pose proof (fun w => nodev_read w a b H) as R. pose proof (fun w => nodev_write w a v b H) as Wr.
  exact (conj (R W1) (conj (if_either _ _ _ _ (R W2)) (conj (if_either _ _ _ _ (R W4))
        (conj (Wr W1) (conj (if_either _ _ _ _ (Wr W2)) (if_either _ _ _ _ (Wr W4))))))).
Qed.
Print Assumptions C10_no_device_no_effect.

(* an access routed to device d leaves every other device untouched, whatever its outcome *)
Theorem C10_device_access_frame :
  forall a v b d, get_device a = Some d ->
    res_frame d b (bus_read_byte a b) /\ res_frame d b (bus_read_half a b) /\ res_frame d b (bus_read_word a b)
    /\ res_frame d b (bus_write_byte a v b) /\ res_frame d b (bus_write_half a v b)
    /\ res_frame d b (bus_write_word a v b).
Proof.
  intros a v b d H.
  exact (conj (bus_read_frame W1 a b d H) (conj (bus_read_frame W2 a b d H) (conj (bus_read_frame W4 a b d H)
        (conj (bus_write_frame W1 a v b d H) (conj (bus_write_frame W2 a v b d H) (bus_write_frame W4 a v b d H)))))).
Qed.
Print Assumptions C10_device_access_frame.

(* no access, at any address and width, crashes or runs past a device *)
Theorem C10_no_spill_no_crash :
  forall b, bus_wf b -> forall a v, 0 <= a ->
    not_crash (bus_read_byte a b) /\ not_crash (bus_read_half a b) /\ not_crash (bus_read_word a b)
    /\ not_crash (bus_write_byte a v b) /\ not_crash (bus_write_half a v b) /\ not_crash (bus_write_word a v b).
Proof.
  intros b W a v Ha.
  exact (conj (bus_read_nocrash W1 b a W Ha) (conj (bus_read_nocrash W2 b a W Ha) (conj (bus_read_nocrash W4 b a W Ha)
        (conj (bus_write_nocrash W1 b a v W) (conj (bus_write_nocrash W2 b a v W) (bus_write_nocrash W4 b a v W)))))).
Qed.
Print Assumptions C10_no_spill_no_crash.

(* the hypotheses are satisfiable: the power-on bus is well-formed *)
Example C10_nonvacuous : bus_wf (bus_new 0).
Proof. exact (bus_new_wf 0). Qed.
