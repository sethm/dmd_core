(* C03  Operands are addressed, extended and stored per addressing mode and type. *)
From Coq Require Import ZArith List Bool Lia ZifyBool.
From Dmd Require Import Model.Bits Model.Types Model.Mem Model.Bus Model.Decode Model.Cpu.
From Dmd Require Import Proofs.BitsLemmas Proofs.BusProofs Proofs.MachKit Proofs.OperandProofs.
Open Scope Z_scope.

(* the seven direct memory modes: the model's effective address is the architected one -- base register (FP / AP
   for the short-offset modes) plus the displacement sign-extended from its encoded width, wrapping at 2^32;
   computing it changes nothing *)
Theorem C03_effective_address_direct :
  forall ir k m a,
    let o := get_op ir k in
    0 <= oemb o < 4294967296 ->
    (match omode o with MFpShort | MApShort | MAbsolute => True | _ => oreg o <> None end) ->
    arch_ea_direct (omode o) (base_value m o) (oemb o) = Some a ->
    effective_address ir k m = Ok a m.
Proof.
  intros ir k m a.
  intros o He Hr H. unfold effective_address. fold o. cbv zeta. unfold base_value in H.
  destruct (omode o) eqn:Em; cbn [arch_ea_direct] in H; try discriminate.
  - inversion H. reflexivity.
  - destruct (oreg o) as [r|]; [|exfalso; now apply Hr]. inversion H. unfold ret. now rewrite add_offset_sext8.
  - destruct (oreg o) as [r|]; [|exfalso; now apply Hr]. inversion H. unfold ret. now rewrite add_offset_sext16.
  - destruct (oreg o) as [r|]; [|exfalso; now apply Hr]. inversion H. unfold ret. now rewrite add_offset_signed.
  - inversion H. now rewrite add_offset_sext8.
  - inversion H. now rewrite add_offset_sext8.
  - destruct (oreg o) as [r|]; [|exfalso; now apply Hr]. inversion H. reflexivity.
Qed.
Print Assumptions C03_effective_address_direct.

(* the four deferred modes: the address is the word read at the architected pointer address *)
Theorem C03_effective_address_deferred :
  forall ir k m p,
    let o := get_op ir k in
    0 <= oemb o < 4294967296 ->
    (match omode o with MAbsoluteDeferred => True | _ => oreg o <> None end) ->
    arch_ea_pointer (omode o) (base_value m o) (oemb o) = Some p ->
    effective_address ir k m = rd_word p m.
Proof.
  intros ir k m p.
  intros o He Hr H. unfold effective_address. fold o. cbv zeta. unfold base_value in H.
  destruct (omode o) eqn:Em; cbn [arch_ea_pointer] in H; try discriminate.
  - inversion H. reflexivity.
  - destruct (oreg o) as [r|]; [|exfalso; now apply Hr]. inversion H. now rewrite add_offset_sext8.
  - destruct (oreg o) as [r|]; [|exfalso; now apply Hr]. inversion H. now rewrite add_offset_sext16.
  - destruct (oreg o) as [r|]; [|exfalso; now apply Hr]. inversion H. now rewrite add_offset_signed.
Qed.
Print Assumptions C03_effective_address_deferred.

Theorem C03_displacements_are_sign_extended :
  forall v e, add_offset v (sext8 e) = (v + s8 e) mod 2 ^ 32
              /\ add_offset v (sext16 e) = (v + s16 e) mod 2 ^ 32
              /\ (0 <= e < 4294967296 -> add_offset v e = (v + s32 e) mod 2 ^ 32).
Proof. intros. split; [apply add_offset_sext8 | split; [apply add_offset_sext16 | intros _; apply add_offset_signed]]. Qed.
Print Assumptions C03_displacements_are_sign_extended.

(* register sources are extended by the operand's type (the expanded type when one is in force): bytes unsigned,
   halfwords and words signed, explicit unsigned / signed types as named *)
Theorem C03_register_source_extension :
  forall ir k m r,
    let o := get_op ir k in
    omode o = MRegister -> oreg o = Some r ->
    read_op ir k m = match arch_extend (data_type o) (R m r) with
                     | Some v => Ok v m
                     | None => Err (EExc IllegalOpcode) m end.
Proof. exact read_register_extension. Qed.
Print Assumptions C03_register_source_extension.

Theorem C03_memory_source_extension :
  forall ir k m eff m1,
    let o := get_op ir k in
    (match omode o with MRegister | MPosLit | MNegLit | MWordImm | MHalfImm | MByteImm => False | _ => True end) ->
    effective_address ir k m = Ok eff m1 ->
    read_op ir k m =
    match data_type o with
    | DWord | DUWord => rd_word eff m1
    | DHalf => bind (rd_half eff m1) (fun v m => Ok ((s16 v) mod 2 ^ 32) m)
    | DUHalf => rd_half eff m1
    | DByte => rd_byte eff m1
    | DSByte => bind (rd_byte eff m1) (fun v m => Ok ((s8 v) mod 2 ^ 32) m)
    | DNone => Err (EExc IllegalOpcode) m1
    end.
Proof.
  intros ir k m eff m1.
  intros o Hm He. unfold read_op. fold o. cbv zeta.
  destruct (omode o); try contradiction; rewrite He; cbn [bind]; destruct (data_type o); try reflexivity;
    try (destruct (rd_half eff m1); cbn [bind]; try reflexivity; now rewrite sext16_spec);
    try (destruct (rd_byte eff m1); cbn [bind]; try reflexivity; now rewrite sext8_spec).
Qed.
Print Assumptions C03_memory_source_extension.

(* literals and immediates are sign-extended from their encoded size, whatever the operand type *)
Theorem C03_literal_immediate_extension :
  forall ir k m,
    let o := get_op ir k in
    (omode o = MPosLit \/ omode o = MNegLit \/ omode o = MByteImm -> read_op ir k m = Ok ((s8 (oemb o)) mod 2 ^ 32) m)
    /\ (omode o = MHalfImm -> read_op ir k m = Ok ((s16 (oemb o)) mod 2 ^ 32) m)
    /\ (omode o = MWordImm -> read_op ir k m = Ok (oemb o) m).
Proof.
  intros ir k m.
  intros o. unfold read_op. fold o. cbv zeta. split; [|split].
  - intros [H|[H|H]]; rewrite H; now rewrite sext8_spec.
  - intros H; rewrite H; now rewrite sext16_spec.
  - intros H; now rewrite H.
Qed.
Print Assumptions C03_literal_immediate_extension.

(* literal and immediate destinations are rejected as illegal; nothing changes *)
Theorem C03_literal_immediate_destination_illegal :
  forall ir k v m,
    let o := get_op ir k in
    omode o = MPosLit \/ omode o = MNegLit \/ omode o = MByteImm \/ omode o = MHalfImm \/ omode o = MWordImm ->
    write_op ir k v m = Err (EExc IllegalOpcode) m.
Proof.
  intros ir k v m.
  intros o H. unfold write_op. fold o. cbv zeta.
  destruct H as [H|[H|[H|[H|H]]]]; rewrite H; reflexivity.
Qed.
Print Assumptions C03_literal_immediate_destination_illegal.

(* a store to memory is one bus write of exactly the destination's size at the effective address ... *)
Theorem C03_store_uses_destination_size :
  forall ir k v m eff m1,
    let o := get_op ir k in
    (match omode o with MRegister | MPosLit | MNegLit | MWordImm | MHalfImm | MByteImm => False | _ => True end) ->
    effective_address ir k m = Ok eff m1 ->
    write_op ir k v m =
    match data_type o with
    | DWord | DUWord => wr_word eff v m1
    | DHalf | DUHalf => wr_half eff (v mod 2 ^ 16) m1
    | DByte | DSByte => wr_byte eff (v mod 2 ^ 8) m1
    | DNone => Err (EExc IllegalOpcode) m1
    end.
Proof. exact write_memory_size. Qed.
Print Assumptions C03_store_uses_destination_size.

(* ... and a word / halfword / byte write to RAM changes exactly 4 / 2 / 1 bytes, big-endian, and no register *)
Theorem C03_store_writes_exact_bytes :
  forall m a v a', bus_wf (mbus m) -> RAMB <= a' ->
    (in_ram_w a -> exists m', wr_word a v m = Ok tt m' /\ mregs m' = mregs m
        /\ ramb m' a' = if (a <=? a') && (a' <? a + 4) then w8 (w32 v / 2 ^ (8 * (a + 3 - a'))) else ramb m a')
    /\ (in_ram_h a -> exists m', wr_half a v m = Ok tt m' /\ mregs m' = mregs m
        /\ ramb m' a' = if a' =? a then w8 (w16 v / 256) else if a' =? a + 1 then w8 (w16 v) else ramb m a')
    /\ (in_ram_b a -> exists m', wr_byte a v m = Ok tt m' /\ mregs m' = mregs m
        /\ ramb m' a' = if a' =? a then w8 v else ramb m a').
Proof.
  intros m a v a' W Ha'. split; [|split]; intros H.
  - pose proof H as [h1 [h2 h3]]. exists (stw m a v). split; [now apply wr_word_ram|]. split; [reflexivity|].
    rewrite ramb_stw by lia.
    destruct (a' =? a) eqn:E0; [replace a' with a by lia; replace ((a <=? a) && (a <? a + 4)) with true by lia;
                                replace (a + 3 - a) with 3 by lia; reflexivity|].
    destruct (a' =? a + 1) eqn:E1; [replace a' with (a + 1) by lia; replace ((a <=? a + 1) && (a + 1 <? a + 4)) with true by lia;
                                replace (a + 3 - (a + 1)) with 2 by lia; reflexivity|].
    destruct (a' =? a + 2) eqn:E2; [replace a' with (a + 2) by lia; replace ((a <=? a + 2) && (a + 2 <? a + 4)) with true by lia;
                                replace (a + 3 - (a + 2)) with 1 by lia; reflexivity|].
    destruct (a' =? a + 3) eqn:E3; [replace a' with (a + 3) by lia; replace ((a <=? a + 3) && (a + 3 <? a + 4)) with true by lia;
                                replace (a + 3 - (a + 3)) with 0 by lia; cbn; now rewrite Z.div_1_r|].
    replace ((a <=? a') && (a' <? a + 4)) with false by lia. reflexivity.
  - exists (sth m a v). split; [now apply wr_half_ram|]. split; [reflexivity|]. destruct H. now apply ramb_sth.
  - exists (stb m a v). split; [now apply wr_byte_ram|]. split; [reflexivity|]. destruct H. now apply ramb_stb.
Qed.
Print Assumptions C03_store_writes_exact_bytes.

Theorem C03_register_destination :
  forall ir k v m r, let o := get_op ir k in
    omode o = MRegister -> oreg o = Some r -> write_op ir k v m = Ok tt (setR m r v).
Proof. exact write_register. Qed.
Print Assumptions C03_register_destination.

(* expanded types: an operand decoded after a prefix carries the prefix's type, one without carries the type
   handed down, and the type an operand carries is what the next operand's decoding receives *)
Theorem C03_expanded_type_governs_following_operands :
  forall St f1 f2 f4 mn ot rest et len s o os l s',
    ot <> ONone ->
    decode_ops St f1 f2 f4 mn (ot :: rest) et len s = Ok (o :: os, l) s' ->
    exists l1 s1, decode_operand St f1 f2 f4 mn ot et len s = Ok (o, l1) s1
      /\ decode_ops St f1 f2 f4 mn rest (oetype o) l1 s1 = Ok (os, l) s'.
Proof.
  intros St f1 f2 f4 mn ot rest et len s o os l s'.
  intros N H. cbn [decode_ops] in H. destruct ot; try congruence;
    destruct (decode_operand St f1 f2 f4 mn _ et len s) as [[o1 l1] s1| | |]; cbn [bind fst snd] in H; try discriminate;
    destruct (decode_ops St f1 f2 f4 mn rest (oetype o1) l1 s1) as [[r l2] s2| | |] eqn:E; cbn [bind fst snd] in H; try discriminate;
    inversion H; subst; exists l1, s1; auto.
Qed.
Print Assumptions C03_expanded_type_governs_following_operands.

Theorem C03_descriptor_type :
  forall St f1 f2 f4 fuel dt et len s o l s',
    decode_descriptor St f1 f2 f4 fuel dt et false len s = Ok (o, l) s' ->
    otype o = dt /\
    (oetype o = et \/ exists d, f1 len s = Ok d (match f1 len s with Ok _ s1 => s1 | _ => s end)
                                 /\ d / 16 = 14 /\ d mod 16 <> 15 /\ oetype o = etype_of (d mod 16)).
Proof.
  intros St f1 f2 f4 fuel dt et len s o l s'.
  intros H. revert o l s' H.
  enough (T : typed St (fun o => otype o = dt /\ (oetype o = et \/ exists d,
                f1 len s = Ok d (match f1 len s with Ok _ s1 => s1 | _ => s end)
                /\ d / 16 = 14 /\ d mod 16 <> 15 /\ oetype o = etype_of (d mod 16)))
              (decode_descriptor St f1 f2 f4 fuel dt et false len s))
    by (intros o l s' H; rewrite H in T; exact T).
  destruct fuel as [|fuel]; [exact I|]. cbn [decode_descriptor]. cbv zeta.
  unfold acc_byte at 1. destruct (f1 len s) as [d s1| | |] eqn:F; cbn [bind]; try exact I.
  destruct (len >=? 32); [exact I|]. cbn [bind fst snd andb].
  (* only a prefix (mode 14, not the absolute-deferred code 15) changes the expanded type *)
  destruct (Z.eqb_spec (d / 16) 14) as [M|M].
  - rewrite M. cbn [Z.leb Z.eqb Z.compare Pos.compare Pos.compare_cont Pos.eqb].
    destruct (Z.eqb_spec (d mod 16) 15) as [E|E]; [apply typed_bind; intros; cbn; auto|].
    destruct (etype_of (d mod 16)) as [t|] eqn:Et; [|exact I].
    eapply typed_impl; [|apply descriptor_inner_typed]. cbn beta. intros o [H1 H2]. split; [exact H2|].
    right. exists d. now rewrite H1.
  - repeat match goal with |- typed _ _ (if ?c then _ else _) => destruct c eqn:? end;
      try lia; try apply typed_bind; intros; cbn; auto.
Qed.
Print Assumptions C03_descriptor_type.
