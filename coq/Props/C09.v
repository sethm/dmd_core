(* C09  Bytes the guest transmits reach the host once, in order. *)
From Coq Require Import ZArith Lia List Bool.
From Dmd Require Import Model.Bits Model.Fifo Model.Mem Model.Duart Proofs.BitKit Proofs.PortProofs
     Proofs.DuartProofs Proofs.DeviceRefine Gen.GenDuart Proofs.RegMapTie Model.Bus Proofs.BusDuart Gen.GenPort
     Proofs.PortTie Gen.GenCmd Proofs.CmdTie.
Import ListNotations.
Open Scope Z_scope.

(* TxRDY set  =>  the holding register is empty: a write made while ready never overwrites an undelivered byte *)
Theorem C09_ready_write_never_overwrites :
  forall (A : Type) (p : port A), PInv p -> bset (stat p) STS_TXR = true -> tx_hold p = None.
Proof. exact (@inv_txr). Qed.
Print Assumptions C09_ready_write_never_overwrites.

(* every history whose THR writes are gated on TxRDY, without reset-transmitter and without loop-back:
   polled bytes ++ pipeline (host queue, shift register, holding register) = written bytes, exactly *)
Theorem C09_tx_exactly_once_in_order :
  forall (A : Type) (dflt : A) (is02 : A -> bool) (ops : list (@pop A)) (p : port A) (W Q : list A),
    PInv p -> loopback p = false -> Q ++ tx_pipe p = W ->
    match tx_run is02 ops p W Q with
    | Some (p', W', Q') => Q' ++ tx_pipe p' = W'
    | None => True
    end.
Proof. exact (@tx_exactly_once_in_order). Qed.
Print Assumptions C09_tx_exactly_once_in_order.

(* the host poll returns nothing exactly when nothing is pending *)
Theorem C09_poll_none_iff_empty :
  forall (A : Type) (p : port A), fst (host_poll p) = None <-> txq p = [].
Proof.
  intros A p. unfold host_poll. destruct (txq p); cbn; split; congruence.
Qed.
Print Assumptions C09_poll_none_iff_empty.

(* local loop-back: a completed byte is handed to the port's own receiver (appended to its FIFO / holding
   register), never to the host queue *)
Theorem C09_loopback_delivers_to_own_receiver :
  forall (A : Type) (is02 : A -> bool) (tm : Z) (kbd : bool) (p : port A) (c : A),
    PInv p -> loopback p = true -> tx_shift p = Some c -> tm >= next_tx p -> rx_enabled p = true ->
    (rx_shift p = None \/ flen (rx_fifo p) < 3) ->
    rx_held (tx_service is02 tm kbd p) = rx_held p ++ [c] /\ txq (tx_service is02 tm kbd p) = txq p
    /\ tx_shift (tx_service is02 tm kbd p) = tx_hold p.
Proof.
  intros A is02 tm kbd p c I Lb Es Due En Room. rewrite tx_service_eq, Es.
  replace (tm >=? next_tx p) with true by (symmetry; apply Z.geb_le; lia). cbn [is_some negb]. rewrite andb_false_r.
  assert (D : forall q : port A, rx_held (tx_load tm (tx_done q)) = rx_held q /\ txq (tx_load tm (tx_done q)) = txq q
                                 /\ tx_shift (tx_load tm (tx_done q)) = tx_hold q).
  { intros q. unfold tx_load, tx_done. cbn [with_tx_shift tx_hold]. destruct (tx_hold q) eqn:Eh; cbn; rewrite ?Eh; auto. }
  destruct (D (tx_emit is02 kbd c p)) as (-> & -> & ->). unfold tx_emit. rewrite Lb, En.
  destruct (rx_char_keeps p c) as ((_ & _ & _ & H & _ & T) & _). rewrite H, T. split; [|auto].
  destruct (rx_char_spec p c I En) as (_ & [[_ Hh]|(old & Ho & Lf & _)]); [exact Hh | destruct Room; [congruence | lia]].
Qed.
Print Assumptions C09_loopback_delivers_to_own_receiver.

Theorem C09_loopback_never_reaches_host :
  forall (A : Type) (is02 : A -> bool) (tm : Z) (kbd : bool) (p : port A),
    PInv p -> loopback p = true ->
    let p' := tx_service is02 tm kbd p in
    PInv p' /\ txq p' = txq p /\ rxq p' = rxq p /\ conf p' = conf p /\ mode1 p' = mode1 p.
Proof.
  intros A is02 tm kbd p I Lb. destruct (tx_service_keeps is02 tm kbd p) as (I1 & M & C & R & _ & T & _). cbv zeta. auto 6.
Qed.
Print Assumptions C09_loopback_never_reaches_host.

(* over every history of device operations, on either channel (b), in which the writes to that channel's transmit
   register are made while its status register shows TxRDY and the channel is neither reset (transmitter) nor put in
   loop-back: the bytes the host's polls of that channel returned, followed by what is still in its pipeline (host
   queue, shift register, holding register), are exactly the bytes written, in order -- whatever happens meanwhile
   on the other channel, the mouse inputs and the interrupt logic *)
Theorem C09_device_tx_exactly_once_in_order :
  forall (b : bool) (ops : list dop) (d : duart) (W Q : list Z),
    DInv d -> loopback (port_of b d) = false -> Q ++ tx_pipe (port_of b d) = W ->
    match dtx_run b ops d W Q with
    | Some (d', W', Q') => Q' ++ tx_pipe (port_of b d') = W'
    | None => True
    end.
Proof.
  intros b ops. induction ops as [|o t IH]; intros d W Q I Lb H; cbn [dtx_run]; [exact H|].
  destruct (dtx_ghost b o d W Q) as (-> & -> & ->). pose proof (dstep_chan b o d) as S.
  revert S. destruct (chan_op b o d) as [po|]; intros S.
  - destruct (tx_ok_op (port_of b d) po) eqn:Ok; [|exact Logic.I].
    apply IH; [apply dinv_step, I | rewrite S | rewrite S].
    + apply (loopback_step is02z); auto using dinv_port. destruct po; auto.
    + apply (tx_step_exact is02z); auto using dinv_port.
  - apply IH; [apply dinv_step, I | rewrite S; exact Lb | rewrite S; exact H].
Qed.
Print Assumptions C09_device_tx_exactly_once_in_order.

(* operations that are not addressed to a channel leave its port -- queues, registers, status -- untouched *)
Theorem C09_other_channel_untouched :
  forall (b : bool) (o : dop) (d : duart), chan_op b o d = None -> port_of b (dstep o d) = port_of b d.
Proof.
  intros b o d H. rewrite dstep_chan, H. reflexivity.
Qed.
Print Assumptions C09_other_channel_untouched.

(* the write side of the register map is the source's: writes at offsets write_byte has no arm for change nothing, and
   an arm acts on a channel's port only if the source arm names that channel *)
Theorem C09_write_map_is_source_register_map :
  (forall off v d, ~ In (w8 off) (arm_offsets gd_write_arms) -> duart_write_byte off v d = d)
  /\ (forall off ports clr b v d,
        In (off, ports, clr) gd_write_arms -> chan_op b (DWrite off v) d <> None -> In (chan_no b) ports).
Proof.
  split.
  - intros off v d. eval_arms. unfold duart_write_byte. cbv zeta. remember (w8 off) as x eqn:Ex. clear Ex. intros H.
  off_cases x; cbn [In] in H; try (exfalso; apply H; tauto). reflexivity.
  - intros off ports clr b v d. unfold gd_write_arms. cbn [In]. intros H.
  repeat (destruct H as [H|H];
          [inversion H; subst; clear H; destruct b; cbn [chan_op chan_base chan_no]; unfold w8 at 1;
           cbn [Z.modulo Z.div_eucl Z.pos_div_eucl]; intros; cbn [In]; try tauto; try congruence|]).
  destruct H.
Qed.
Print Assumptions C09_write_map_is_source_register_map.

(* at guest addresses, from power-on, over every interleaving of guest bus accesses (any width, address and value)
   with host enqueues and polls, service calls, interrupt polls and mouse events, the transmit-register writes of the
   channel being made while its status shows TxRDY: polled bytes ++ pipeline = written bytes, exactly and in order *)
Theorem C09_guest_tx_exactly_once_in_order :
  forall (chan : bool) (ops : list sysop) (now : Z),
    match dtx_run chan (flat_map sys_dops ops) (duart_ (bus_new now)) [] [] with
    | Some (d', W', Q') =>
      Q' ++ tx_pipe (port_of chan d') = W' /\ d' = duart_ (fold_left (fun s o => sys_step o s) ops (bus_new now))
    | None => True
    end.
Proof.
  intros chan ops now. change (duart_ (bus_new now)) with (duart_new now).
  pose proof (C09_device_tx_exactly_once_in_order chan (flat_map sys_dops ops) (duart_new now) [] [] (dinv_new now)) as H.
  assert (Hd : forall l d W Q d' W' Q', dtx_run chan l d W Q = Some (d', W', Q') -> d' = drun l d).
  { induction l as [|o t IH]; intros d W Q d' W' Q'; cbn [dtx_run drun].
    - intros E; inversion E; reflexivity.
    - destruct (dev_tx_ok chan d o); [apply IH | discriminate]. }
  destruct (dtx_run chan (flat_map sys_dops ops) (duart_new now) [] []) as [[[d' W'] Q']|] eqn:E; [|exact I].
  split.
  - apply H; destruct chan; reflexivity.
  - rewrite (Hd _ _ _ _ _ _ _ E), sys_run_duart. reflexivity.
Qed.
Print Assumptions C09_guest_tx_exactly_once_in_order.

(* enable / disable transmitter and the loop-back test are the source's functions (translated on every run) *)
Theorem C09_transmitter_helpers_are_source_functions :
  forall (A : Type) (p : port A),
    enable_tx p = g_enable_tx p /\ disable_tx p = g_disable_tx p /\ loopback p = g_loopback p.
Proof. intros A p. repeat apply conj; [apply enable_tx_is_source | apply disable_tx_is_source | apply loopback_is_source]. Qed.
Print Assumptions C09_transmitter_helpers_are_source_functions.

(* the model's handle_command equals Duart::handle_command as translated from /repo/src/duart.rs (Gen/GenCmd.v; see
   C08_command_interpreter_is_source_function) for every command byte, channel and state *)
Theorem C09_command_interpreter_is_source_function :
  forall cmd pn d, handle_command cmd pn d = g_handle_command cmd pn d.
Proof. exact handle_command_is_source. Qed.
Print Assumptions C09_command_interpreter_is_source_function.
