(* C17  Serial pacing and the 60 Hz tick follow emulated time (virtual clock; the wall-clock build is not modelled). *)
From Coq Require Import ZArith Lia List Bool.
From Dmd Require Import Model.Bits Model.Duart Spec.Scn2681 Gen.GenDuart Proofs.PortProofs Proofs.DuartProofs
     Proofs.DuartProofs2.
Open Scope Z_scope.

(* the tables the model uses are the tables in the source *)
Theorem C17_tables_are_source_tables :
  BAUD_RATES_A = gd_BAUD_RATES_A /\ BAUD_RATES_B = gd_BAUD_RATES_B /\ VERTICAL_BLANK_DELAY = gd_VERTICAL_BLANK_DELAY.
Proof. repeat split; reflexivity. Qed.
Print Assumptions C17_tables_are_source_tables.

(* all 13 valid clock-select codes x both baud sets: one character time is between 8 and 12 bit times of the
   data-sheet rate (to within one nanosecond of rounding) *)
Theorem C17_delay_table_8_to_12_bit_times :
  forallb (fun code => char_time_ok (delay_rate (code * 16) 0) (nth (Z.to_nat code) ds_rate2_set1 0)
                       && char_time_ok (delay_rate (code * 16) 128) (nth (Z.to_nat code) ds_rate2_set2 0))
          all_codes = true.
Proof.
  vm_compute. reflexivity.
Qed.
Print Assumptions C17_delay_table_8_to_12_bit_times.

Theorem C17_delay_depends_on_code_and_set_only :
  forall csr acr, 0 <= csr < 256 ->
    delay_rate csr acr = delay_rate ((csr / 16) * 16) (if Z.land acr 128 =? 0 then 0 else 128).
Proof.
  intros csr acr H. unfold delay_rate.
  assert (E : Z.land (Z.shiftr csr 4) 15 = Z.land (Z.shiftr (csr / 16 * 16) 4) 15).
  { rewrite !Z.shiftr_div_pow2 by lia. change (2 ^ 4) with 16. rewrite Z.div_mul by lia. reflexivity. }
  rewrite <- E. destruct (Z.land acr 128 =? 0); reflexivity.
Qed.
Print Assumptions C17_delay_depends_on_code_and_set_only.

(* receive pacing: a transfer from the host queue happens only when the deadline has passed, re-arms the deadline
   one character time later, and a due byte is transferred by the very next service call *)
Theorem C17_rx_spacing_and_promptness :
  forall (now : Z) (p : port Z), PInv p -> loopback p = false ->
    let p' := rx_service now p in
    (rxq p' <> rxq p -> now >= next_rx p /\ next_rx p' = now + char_delay p /\ rx_enabled p = true)
    /\ (rx_enabled p = true -> rxq p <> [] -> now >= next_rx p ->
        exists c rest, rxq p = c :: rest /\ rxq p' = rest /\ bset (stat p') STS_RXR = true).
Proof.
  intros now p _ Lb. cbv zeta.
  destruct (rx_service_cases now p) as [[-> H]|[[Lb' _]|(_ & c & rest & Eq & En & Due & ->)]]; [|congruence|].
  - split; [congruence|]. intros En Ne Due. destruct H as [H|[H|H]]; [congruence | congruence | lia].
  - cbn [with_next_rx next_rx rxq stat]. split; [auto|]. intros _ _ _. exists c, rest.
    split; [exact Eq|]. split; [apply rx_char_keeps | apply rx_char_rxr].
Qed.
Print Assumptions C17_rx_spacing_and_promptness.

(* the vertical-blank request: a poll after the deadline raises it and re-arms the deadline 1/60 s later (so never
   more often); a poll at or before the deadline leaves the deadline where it was *)
Theorem C17_vblank_period :
  forall tm d,
    (tm > next_vblank d -> next_vblank (snd (get_interrupt tm d)) = tm + VERTICAL_BLANK_DELAY
                           /\ bset (ivec (snd (get_interrupt tm d))) MOUSE_BLANK_INT = true)
    /\ (tm <= next_vblank d -> next_vblank (snd (get_interrupt tm d)) = next_vblank d).
Proof.
  intros tm d.
  destruct (get_interrupt_spec tm d) as (_ & _ & Iv & _ & Nv & _).
  destruct (vb_stage_spec tm d) as (_ & _ & _ & _ & Nv0). rewrite Nv, Nv0, Iv. unfold gi_ivec.
  split; intros H.
  - replace (tm >? next_vblank d) with true by (symmetry; apply Z.gtb_lt; lia). split; [reflexivity | dbits].
  - replace (tm >? next_vblank d) with false; [reflexivity|]. symmetry. rewrite Z.gtb_ltb. apply Z.ltb_ge. lia.
Qed.
Print Assumptions C17_vblank_period.

(* ... and the acknowledging read withdraws it *)
Theorem C17_vblank_withdrawn_on_ack :
  forall d, let d1 := dstep (DRead 19) d in ivec d1 = 0 /\ bset (isr d1) ISTS_IPC = false.
Proof.
  intros d. cbn. unfold isr_clr. cbn. split; [reflexivity | dbits].
Qed.
Print Assumptions C17_vblank_withdrawn_on_ack.
